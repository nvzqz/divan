(** The painter model (C20): the shape of a written row, what a line of the
    output must look like ([line_ok]), and for every operation what it writes
    and where it leaves the painter, as triples [paints pre post ops specs]. *)
From DivanV Require Import Base.Res Model.Painter Model.DriverPaint Model.Parse Proofs.ListFacts.

(** [row_shape cells s]: [s] is the cells in order, each followed by some
    padding and separated by " │ "; an empty last cell is preceded by " │"
    only. *)
Inductive row_shape : list str -> str -> Prop :=
| RS_one : forall v, row_shape [v] v
| RS_last_empty : forall v k, row_shape [v; []] (v ++ spaces k ++ [sp; c_bar])
| RS_cons : forall v k rest t, rest <> [] -> row_shape rest t ->
    row_shape (v :: rest) (v ++ spaces k ++ [sp; c_bar; sp] ++ t).

(** What [write_go false] writes: a separator, then the cells. *)
Definition sep_shape (cells : list str) (s : str) : Prop :=
  (cells = [[]] /\ s = [sp; c_bar]) \/
  (cells <> [[]] /\ exists t, s = [sp; c_bar; sp] ++ t /\ row_shape cells t).

Definition hd_pos (ws : list nat) : Prop :=
  match ws with w :: _ => 0 < w | [] => False end.

Lemma write_go_cons2 : forall first v v2 rest w ws,
  write_go first (v :: v2 :: rest) (w :: ws) =
  bind (write_go false (v2 :: rest) ws) (fun r =>
    Ok ((if first then [] else [sp; c_bar; sp]) ++ v
        ++ (if Nat.leb (length v) w then spaces (w - length v) else []) ++ fst r,
        (if Nat.leb (length v) w then w else length v) :: snd r)).
Proof. intros. destruct first; reflexivity. Qed.

Lemma pad_spaces : forall (v : str) w,
  exists k, (if Nat.leb (length v) w then spaces (w - length v) else []) = spaces k.
Proof. intros. destruct (Nat.leb (length v) w); [eexists; reflexivity | exists 0; reflexivity]. Qed.

Lemma row_shape_step : forall v rest s pad,
  (exists k, pad = spaces k) -> sep_shape rest s -> rest <> [] -> row_shape (v :: rest) (v ++ pad ++ s).
Proof.
  intros v rest s pad (k & ->) Sh Hne.
  destruct Sh as [[-> ->] | [Hn (t & -> & Ht)]].
  - apply RS_last_empty.
  - apply RS_cons; assumption.
Qed.

Lemma write_go_shape : forall cells first ws,
  cells <> [] -> length cells <= S (length ws) ->
  exists s ws', write_go first cells ws = Ok (s, ws') /\
    (if first then row_shape cells s else sep_shape cells s) /\
    length ws' = length ws /\ (hd_pos ws -> hd_pos ws').
Proof.
  induction cells as [|v rest IH]; intros first ws Hne Hlen; [congruence|].
  destruct rest as [|v2 rest'].
  - exists ((if first then [] else if Nat.eqb (length v) 0 then [sp; c_bar] else [sp; c_bar; sp]) ++ v), ws.
    split; [destruct first; reflexivity|]. split; [|auto].
    destruct first; [constructor|]. destruct v; [left; auto|].
    right. split; [congruence|]. eexists. split; [reflexivity | constructor].
  - destruct ws as [|w ws']; [cbn in Hlen; lia|].
    destruct (IH false ws') as (s & wsr & E & Sh & L & _); [congruence | cbn in *; lia |].
    rewrite write_go_cons2, E. cbn [bind fst snd].
    eexists. eexists. split; [reflexivity|].
    assert (R : row_shape (v :: v2 :: rest')
                  (v ++ (if Nat.leb (length v) w then spaces (w - length v) else []) ++ s))
      by (apply row_shape_step; [apply pad_spaces | exact Sh | congruence]).
    split; [|split].
    + destruct first; [exact R|]. right. split; [congruence|]. eexists. split; [reflexivity | exact R].
    + cbn [length]. rewrite L. reflexivity.
    + cbn. intros Hw. destruct (Nat.leb (length v) w) eqn:El; [exact Hw|].
      apply PeanoNat.Nat.leb_gt in El. lia.
Qed.

(** The widths throughout a benchmark run: six columns, the first not zero. *)
Definition wide (ws : list nat) : Prop := length ws = 6 /\ hd_pos ws.

Lemma write_cols_six : forall row ws,
  length row = 6 -> wide ws ->
  exists s ws', write_cols row ws = Ok (s, ws') /\ row_shape row s /\ wide ws'.
Proof.
  intros row ws Hr [Hl Hp].
  destruct (write_go_shape row true ws) as (s & ws' & E & Sh & L & P);
    [destruct row; [discriminate | congruence] | lia |].
  exists s, ws'. unfold wide. rewrite L. auto.
Qed.

Definition tail_ok (c : option (list str)) (tail : str) : Prop :=
  match c with
  | None => exists k, tail = spaces k /\ (k = 0 \/ 2 <= k)
  | Some row => exists k s, 2 <= k /\ tail = spaces k ++ s /\ row_shape row s
  end.

Definition line_ok (l : lspec) (line : str) : Prop :=
  match l with
  | LTop n c => exists tail, line = n ++ tail /\ tail_ok c tail
  | LNode fl last n c =>
    exists tail, line = units_str fl ++ branch_glyph last ++ n ++ tail /\ tail_ok c tail
  | LRow fl last row =>
    exists k s, 2 <= k /\
      line = units_str fl ++ (if last then [] else [c_bar]) ++ spaces k ++ s /\ row_shape row s
  | LBlank => line = []
  end.

Definition unlines (ls : list str) : str := flat_map (fun l => l ++ [nl]) ls.

Definition lines_shape (specs : list lspec) (out : str) : Prop :=
  exists ls, out = unlines ls /\ Forall2 line_ok specs ls.

Lemma unlines_app : forall a b, unlines (a ++ b) = unlines a ++ unlines b.
Proof. intros. apply flat_map_app. Qed.

Lemma lines_shape_app : forall s1 s2 o1 o2,
  lines_shape s1 o1 -> lines_shape s2 o2 -> lines_shape (s1 ++ s2) (o1 ++ o2).
Proof.
  intros s1 s2 o1 o2 (l1 & -> & F1) (l2 & -> & F2).
  exists (l1 ++ l2). split; [symmetry; apply unlines_app | apply Forall2_app; auto].
Qed.

Lemma lines_shape_nil : lines_shape [] [].
Proof. exists []. split; [reflexivity | constructor]. Qed.

Lemma lines_shape_one : forall spec line, line_ok spec line -> lines_shape [spec] (line ++ [nl]).
Proof.
  intros. exists [line]. split; [cbn; rewrite app_nil_r; reflexivity | repeat constructor; auto].
Qed.

Lemma lines_shape_cons : forall spec line specs out,
  line_ok spec line -> lines_shape specs out -> lines_shape (spec :: specs) ((line ++ [nl]) ++ out).
Proof. intros. apply (lines_shape_app [spec]); [apply lines_shape_one|]; assumption. Qed.

Lemma name_pad : forall (hc : bool) n m,
  exists k span, (if hc then right_pad n m else ([], m)) = (spaces k, span) /\ (if hc then 2 <= k else k = 0).
Proof.
  intros [] n m; [|exists 0, m; auto].
  unfold right_pad, tree_col_buf. eexists. eexists. split; [reflexivity|]. lia.
Qed.

Lemma right_pad_spec : forall n m, exists k span, right_pad n m = (spaces k, span) /\ 2 <= k.
Proof. exact (name_pad true). Qed.

Lemma headings_len : length headings = 6. Proof. reflexivity. Qed.

Lemma units_str_app : forall a b, units_str (a ++ b) = units_str a ++ units_str b.
Proof. induction a; intros; cbn; [reflexivity|]. rewrite IHa, app_assoc. reflexivity. Qed.

Lemma units_str_length : forall fl, length (units_str fl) = 3 * length fl.
Proof. induction fl as [|f fl IH]; cbn [units_str length]; [reflexivity|].
  rewrite app_length, IH. destruct f; cbn; lia. Qed.

(** [run_action] starts the painter with all widths zero unless it benchmarks;
    then the first four are [max_common_column_width]. *)
Definition inv (a : action) (p : painter) : Prop :=
  if is_bench a then wide (widths p) else widths p = [0; 0; 0; 0; 0; 0].

Lemma inv_has_columns : forall a p, inv a p -> has_columns p = is_bench a.
Proof.
  intros a p H. unfold inv, wide in H. unfold has_columns.
  destruct (is_bench a).
  - destruct H as [_ H]. destruct (widths p) as [|w ws]; [contradiction|].
    cbn in *. destruct w; [lia|]. reflexivity.
  - rewrite H. reflexivity.
Qed.

(** Where the painter stands: between top-level groups, or below open parents
    whose flags ([true] = has later siblings) are [fl], the top-level one not
    counted. *)
Definition at_top (a : action) (p : painter) : Prop :=
  inv a p /\ depth p = 0 /\ prefix p = [].

Definition inside (a : action) (fl : list bool) (p : painter) : Prop :=
  inv a p /\ depth p = S (length fl) /\ prefix p = units_str fl.

Definition paints (pre post : painter -> Prop) (ops : list op) (specs : list lspec) : Prop :=
  forall p, pre p ->
    exists p' out, exec p ops = Ok (p', out) /\ post p' /\ lines_shape specs out.

Lemma exec_app : forall o1 o2 p,
  exec p (o1 ++ o2) =
  (do r1 <- exec p o1; do r2 <- exec (fst r1) o2; Ok (fst r2, snd r1 ++ snd r2)).
Proof.
  induction o1 as [|o r IH]; intros o2 p; cbn [app exec].
  - cbn [bind fst snd app]. destruct (exec p o2) as [[p2 out2]|]; reflexivity.
  - destruct (step p o) as [[pa oa]|]; [|reflexivity]. cbn [bind fst snd]. rewrite IH.
    destruct (exec pa r) as [[pb ob]|]; [|reflexivity]. cbn [bind fst snd].
    destruct (exec pb o2) as [[pc oc]|]; [|reflexivity]. cbn [bind fst snd].
    rewrite app_assoc. reflexivity.
Qed.

Lemma exec_app_ok : forall o1 o2 p p1 out1 p2 out2,
  exec p o1 = Ok (p1, out1) -> exec p1 o2 = Ok (p2, out2) ->
  exec p (o1 ++ o2) = Ok (p2, out1 ++ out2).
Proof. intros o1 o2 p p1 out1 p2 out2 E1 E2. rewrite exec_app, E1. cbn [bind fst snd]. rewrite E2. reflexivity. Qed.

Lemma exec_one : forall p o p' out, step p o = Ok (p', out) -> exec p [o] = Ok (p', out).
Proof. intros p o p' out H. cbn. rewrite H. cbn. rewrite app_nil_r. reflexivity. Qed.

Lemma paints_nil : forall pre, paints pre pre [] [].
Proof. intros pre p H. exists p, []. split; [reflexivity|]. split; [exact H | apply lines_shape_nil]. Qed.

Lemma paints_app : forall pre mid post o1 o2 s1 s2,
  paints pre mid o1 s1 -> paints mid post o2 s2 -> paints pre post (o1 ++ o2) (s1 ++ s2).
Proof.
  intros pre mid post o1 o2 s1 s2 H1 H2 p H.
  destruct (H1 p H) as (p1 & out1 & E1 & M & L1).
  destruct (H2 p1 M) as (p2 & out2 & E2 & Q & L2).
  exists p2, (out1 ++ out2).
  split; [exact (exec_app_ok _ _ _ _ _ _ _ E1 E2)|]. split; [exact Q | apply lines_shape_app; assumption].
Qed.

Lemma paints_line : forall (pre post : painter -> Prop) o spec,
  (forall p, pre p -> exists p' line, step p o = Ok (p', line ++ [nl]) /\ post p' /\ line_ok spec line) ->
  paints pre post [o] [spec].
Proof.
  intros pre post o spec H p Hp. destruct (H p Hp) as (p' & line & E & Q & L).
  exists p', (line ++ [nl]). split; [exact (exec_one _ _ _ _ E)|]. split; [exact Q | apply lines_shape_one, L].
Qed.

Lemma start_parent_line : forall a p name l,
  inv a p ->
  exists p' tail,
    start_parent p name l =
      Ok (p', ((prefix p ++ (if Nat.eqb (depth p) 0 then [] else branch_glyph l) ++ name) ++ tail) ++ [nl]) /\
    tail_ok (parent_cells a (Nat.eqb (depth p) 0)) tail /\ inv a p' /\ depth p' = S (depth p) /\
    prefix p' = if Nat.eqb (depth p) 0 then prefix p else prefix p ++ units_str [negb l].
Proof.
  intros a p name l Hinv. unfold start_parent. rewrite (inv_has_columns a p Hinv).
  unfold parent_cells, inv in *.
  (* which six cells are written does not matter *)
  assert (Hrow : length (if Nat.eqb (depth p) 0 then headings else six_empty) = 6)
    by (destruct (Nat.eqb (depth p) 0); reflexivity).
  revert Hrow. generalize (if Nat.eqb (depth p) 0 then headings else six_empty). intros row Hrow.
  generalize (prefix p ++ (if Nat.eqb (depth p) 0 then [] else branch_glyph l) ++ name). intros buf.
  destruct (is_bench a).
  - destruct (write_cols_six row (widths p) Hrow Hinv) as (s & ws' & E & Sh & W).
    destruct (right_pad_spec (length buf) (max_name_span p)) as (k & span & -> & Hk).
    rewrite E. cbn [bind fst snd].
    eexists. exists (spaces k ++ s). split; [rewrite <- !app_assoc; reflexivity|].
    split; [exists k, s; auto|]. split; [exact W|]. split; [reflexivity|].
    cbn [prefix units_str]. rewrite app_nil_r. reflexivity.
  - cbn [bind fst snd].
    eexists. exists []. split; [rewrite !app_nil_r; reflexivity|].
    split; [exists 0; auto|]. split; [exact Hinv|]. split; [reflexivity|].
    cbn [prefix units_str]. rewrite app_nil_r. reflexivity.
Qed.

Lemma start_parent_top : forall a name l,
  paints (at_top a) (inside a []) [StartParent name l] [LTop name (parent_cells a true)].
Proof.
  intros a name l. apply paints_line. intros p (Hi & Hd & Hp).
  destruct (start_parent_line a p name l Hi) as (p' & tail & E & T & Hi' & Hd' & Hp').
  rewrite Hd, Hp in *. exists p', (name ++ tail).
  split; [exact E|]. split; [repeat split; assumption|]. exists tail. auto.
Qed.

Lemma start_parent_inner : forall a fl name l,
  paints (inside a fl) (inside a (fl ++ [negb l])) [StartParent name l]
         [LNode fl l name (parent_cells a false)].
Proof.
  intros a fl name l. apply paints_line. intros p (Hi & Hd & Hp).
  destruct (start_parent_line a p name l Hi) as (p' & tail & E & T & Hi' & Hd' & Hp').
  rewrite Hd, Hp in *. cbn [Nat.eqb] in *. exists p', ((units_str fl ++ branch_glyph l ++ name) ++ tail).
  split; [exact E|]. split; [|exists tail; split; [rewrite <- !app_assoc; reflexivity | exact T]].
  split; [exact Hi'|]. rewrite app_length, units_str_app. cbn [length]. split; [lia | exact Hp'].
Qed.

Lemma firstn_units : forall fl b,
  firstn (length (units_str (fl ++ [b])) - 3) (units_str (fl ++ [b])) = units_str fl.
Proof.
  intros. rewrite units_str_app. rewrite app_length.
  replace (length (units_str [b])) with 3 by (destruct b; reflexivity).
  replace (length (units_str fl) + 3 - 3) with (length (units_str fl) + 0) by lia.
  rewrite firstn_app_2. cbn. rewrite app_nil_r. reflexivity.
Qed.

Lemma finish_parent_inner : forall a fl b,
  paints (inside a (fl ++ [b])) (inside a fl) [FinishParent] [].
Proof.
  intros a fl b p (Hi & Hd & Hp). rewrite app_length in Hd. cbn [length] in Hd.
  eexists. exists []. cbn [exec step]. unfold finish_parent.
  replace (depth p) with (S (S (length fl))) by lia. cbn [Nat.eqb bind fst snd app].
  split; [reflexivity|]. split; [|apply lines_shape_nil].
  split; [exact Hi|]. split; [reflexivity|]. cbn [prefix]. rewrite Hp. apply firstn_units.
Qed.

Lemma finish_parent_top : forall a,
  paints (inside a []) (at_top a) [FinishParent] [LBlank].
Proof.
  intros a. apply paints_line. intros p (Hi & Hd & Hp).
  eexists. exists []. cbn [step]. unfold finish_parent. rewrite Hd. cbn [Nat.eqb length].
  split; [reflexivity|]. split; [|reflexivity].
  split; [exact Hi|]. split; [reflexivity|]. cbn [prefix]. rewrite Hp. reflexivity.
Qed.

Lemma ignore_leaf_line : forall a fl name l,
  paints (inside a fl) (inside a fl) [IgnoreLeaf name l]
         [LNode fl l name (Some (if is_bench a then from_first s_ignored else [s_ignored]))].
Proof.
  intros a fl name l. apply paints_line. intros p (Hi & Hd & Hp).
  cbn [step]. unfold ignore_leaf. rewrite (inv_has_columns a p Hi), Hp.
  destruct (right_pad_spec (length (units_str fl ++ branch_glyph l ++ name)) (max_name_span p))
    as (k & span & -> & Hk).
  unfold inside, inv in *. destruct (is_bench a).
  - destruct (write_cols_six (from_first s_ignored) (widths p) eq_refl Hi) as (s & ws' & E & Sh & W).
    rewrite E. cbn [bind fst snd].
    eexists. exists (units_str fl ++ branch_glyph l ++ name ++ spaces k ++ s).
    split; [rewrite <- !app_assoc; reflexivity|]. split; [auto|].
    eexists. split; [reflexivity|]. exists k, s. auto.
  - cbn [bind fst snd].
    eexists. exists (units_str fl ++ branch_glyph l ++ name ++ spaces k ++ s_ignored).
    split; [rewrite <- !app_assoc; reflexivity|]. split; [auto|].
    eexists. split; [reflexivity|]. exists k, s_ignored. repeat split; auto. constructor.
Qed.

Lemma start_leaf_text : forall a p fl name l,
  inside a fl p ->
  exists p' k, start_leaf p name l = Ok (p', units_str fl ++ branch_glyph l ++ name ++ spaces k) /\
    (if is_bench a then 2 <= k else k = 0) /\ inside a fl p'.
Proof.
  intros a p fl name l (Hi & Hd & Hp).
  unfold start_leaf. rewrite (inv_has_columns a p Hi), Hp.
  destruct (name_pad (is_bench a) (length (units_str fl ++ branch_glyph l ++ name)) (max_name_span p))
    as (k & span & -> & Hk).
  eexists. exists k. split; [rewrite <- !app_assoc; reflexivity|]. split; [exact Hk|].
  repeat split; assumption.
Qed.

Lemma leaf_empty : forall a fl name l mid,
  (forall p, exec p mid = Ok (p, [])) ->
  paints (inside a fl) (inside a fl) ([StartLeaf name l] ++ mid ++ [FinishEmptyLeaf]) [LNode fl l name None].
Proof.
  intros a fl name l mid Hmid p Hin.
  destruct (start_leaf_text a p fl name l Hin) as (p1 & k & E1 & Hk & Hin1).
  exists p1, ((units_str fl ++ branch_glyph l ++ name ++ spaces k) ++ [] ++ [nl]).
  split; [|split; [exact Hin1|]].
  - eapply exec_app_ok; [apply exec_one; exact E1|].
    eapply exec_app_ok; [apply Hmid | apply exec_one; reflexivity].
  - apply lines_shape_one. exists (spaces k). split; [reflexivity|].
    exists k. split; [reflexivity|]. destruct (is_bench a); lia.
Qed.

Lemma write_rows_lines : forall fl l rows span ws,
  Forall (fun r => length r = 6) rows -> wide ws ->
  exists out span' ws', write_rows (units_str fl) l rows span ws = Ok (out, span', ws') /\
    lines_shape (map (LRow fl l) rows) out /\ wide ws'.
Proof.
  intros fl l rows. induction rows as [|row rest IH]; intros span ws Hf W.
  - exists [], span, ws. split; [reflexivity|]. split; [apply lines_shape_nil | exact W].
  - inversion Hf as [|? ? Hr Hf']; subst.
    cbn [write_rows].
    destruct (right_pad_spec (length (units_str fl ++ (if negb l then [c_bar] else []))) span)
      as (k & span1 & -> & Hk).
    destruct (write_cols_six row ws Hr W) as (s & ws1 & E & Sh & W1).
    rewrite E. cbn [bind fst snd].
    destruct (IH span1 ws1 Hf' W1) as (out & span' & ws' & E2 & Sh2 & W2).
    rewrite E2. cbn [bind fst snd].
    eexists. eexists. eexists. split; [reflexivity|]. split; [|exact W2].
    replace ((units_str fl ++ (if negb l then [c_bar] else [])) ++ spaces k ++ s ++ [nl] ++ out)
      with (((units_str fl ++ (if l then [] else [c_bar]) ++ spaces k ++ s) ++ [nl]) ++ out)
      by (destruct l; cbn [negb]; rewrite <- !app_assoc; reflexivity).
    apply (lines_shape_cons (LRow fl l row)); [|exact Sh2]. exists k, s. auto.
Qed.

Definition wf_cells (c : stats_cells) : Prop :=
  length (time_row c) = 6 /\ Forall (fun r => length r = 6) (cont_rows c).

Lemma widen_wide : forall k rows ws, wide ws -> wide (widen k rows ws).
Proof.
  intros k rows ws [Hl Hp]. split.
  - rewrite <- Hl. clear. revert rows ws.
    induction k; intros rows [|w ws']; cbn [widen length]; auto.
  - destruct k, ws as [|w ws']; auto. cbn in *.
    pose proof (fold_left_max_ge (map (fun r => length (hd [] r)) rows) w). lia.
Qed.

Lemma leaf_stats : forall fl name l mid c,
  (forall p, exec p mid = Ok (p, [])) -> wf_cells c ->
  paints (inside ABench fl) (inside ABench fl) ([StartLeaf name l] ++ mid ++ [FinishLeaf l c])
         (LNode fl l name (Some (time_row c)) :: map (LRow fl l) (cont_rows c)).
Proof.
  intros fl name l mid c Hmid [Ht Hr] p Hin.
  destruct (start_leaf_text ABench p fl name l Hin) as (p1 & k & E1 & Hk & Hi1 & Hd1 & Hp1).
  destruct (write_cols_six (time_row c) _ Ht (widen_wide 4 (width_rows c) _ Hi1)) as (s & ws1 & E & Sh & W1).
  destruct (write_rows_lines fl l (cont_rows c) (max_name_span p1) ws1 Hr W1) as (out & span' & ws' & E2 & Sh2 & W2).
  eexists. exists ((units_str fl ++ branch_glyph l ++ name ++ spaces k) ++ [] ++ (s ++ [nl] ++ out)).
  split; [|split].
  - eapply exec_app_ok; [apply exec_one; exact E1|].
    eapply exec_app_ok; [apply Hmid | apply exec_one].
    cbn [step]. unfold finish_leaf. rewrite E, Hp1. cbn [bind fst snd]. rewrite E2. reflexivity.
  - split; [exact W2 | split; [exact Hd1 | reflexivity]].
  - replace ((units_str fl ++ branch_glyph l ++ name ++ spaces k) ++ [] ++ s ++ [nl] ++ out)
      with (((units_str fl ++ branch_glyph l ++ name ++ spaces k ++ s) ++ [nl]) ++ out)
      by (rewrite <- !app_assoc; reflexivity).
    apply (lines_shape_cons (LNode fl l name (Some (time_row c)))); [|exact Sh2].
    eexists. split; [reflexivity|]. exists k, s. auto.
Qed.

(** An ignored entry paints one [(ignored)] line and calls nothing. *)
Lemma ignored_entry_ops : forall a id name args threads out is_last,
  run_bench_entry a id name true args threads out is_last = [IgnoreLeaf name is_last].
Proof. reflexivity. Qed.
