(** Lemmas about Model/FmtF64.v: list slicing, [strip0]/[pre_zero], decimal
    numerals, the core fact that [format_f64_str] applied to the exact
    numeral of [n / 10^s] yields the numeral truncated to [sig - d] places,
    and the correspondence between rendered numerals and the numbers they
    denote, from which [numeral_sb] gets its meaning. *)
From DivanV Require Import Base.Res Model.FmtF64 Proofs.ListFacts.
From Coq Require Import ZifyBool ZifyN.
Local Open Scope N_scope.
Local Arguments N.add : simpl never.
Local Arguments N.sub : simpl never.
Local Arguments N.mul : simpl never.
Local Arguments N.div : simpl never.
Local Arguments N.modulo : simpl never.
Local Arguments N.pow : simpl never.

Lemma len_app : forall a b : str, len (a ++ b) = len a + len b.
Proof. intros. unfold len. rewrite app_length. lia. Qed.

Lemma len_cons : forall (x : N) (a : str), len (x :: a) = 1 + len a.
Proof. intros. unfold len. cbn [length]. lia. Qed.

Lemma len_nil : len [] = 0.
Proof. reflexivity. Qed.

Lemma len_repeat : forall (c : N) n, len (repeat c n) = N.of_nat n.
Proof. intros. unfold len. now rewrite repeat_length. Qed.

Lemma len_rev : forall a : str, len (rev a) = len a.
Proof. intros. unfold len. now rewrite rev_length. Qed.

Lemma len_zero_nil : forall a : str, len a = 0 -> a = [].
Proof. intros [|x a] H; [reflexivity|]. unfold len in H. cbn [length] in H. lia. Qed.

Lemma take_app_le : forall n (a b : str), n <= len a -> take n (a ++ b) = take n a.
Proof.
  intros n a b H. unfold take, len in *. rewrite firstn_app.
  replace (N.to_nat n - length a)%nat with O by lia. cbn [firstn]. now rewrite app_nil_r.
Qed.

Lemma take_app_ge : forall n (a b : str), len a <= n -> take n (a ++ b) = a ++ take (n - len a) b.
Proof.
  intros n a b H. unfold take, len in *. rewrite firstn_app.
  rewrite firstn_all2 by lia. f_equal. f_equal. lia.
Qed.

Lemma take_all : forall n (a : str), len a <= n -> take n a = a.
Proof. intros. unfold take, len in *. apply firstn_all2. lia. Qed.

Lemma take_0 : forall a : str, take 0 a = [].
Proof. reflexivity. Qed.

Lemma len_take : forall n (a : str), len (take n a) = N.min n (len a).
Proof. intros. unfold take, len. rewrite firstn_length. lia. Qed.

Lemma drop_app_exact : forall n (a b : str), n = len a -> drop n (a ++ b) = b.
Proof.
  intros n a b ->. unfold drop, len. rewrite Nat2N.id. apply skipn_app_exact.
Qed.

Lemma take_repeat : forall n (c : N) m, take n (repeat c m) = repeat c (Nat.min (N.to_nat n) m).
Proof.
  intros n c m. unfold take. generalize (N.to_nat n) as j. clear n.
  induction m as [|m IH]; intros [|j]; cbn [firstn repeat Nat.min]; try reflexivity.
  now rewrite IH.
Qed.

Definition notin (c : N) (l : str) : Prop := Forall (fun x => x <> c) l.

Lemma find_byte_notin : forall c l, notin c l -> find_byte c l = None.
Proof.
  intros c l H. induction H as [|x l Hx _ IH]; cbn [find_byte]; [reflexivity|].
  destruct (x =? c) eqn:E; [lia|]. now rewrite IH.
Qed.

Lemma find_byte_app : forall c a b, notin c a -> find_byte c (a ++ c :: b) = Some (len a).
Proof.
  intros c a b H. induction H as [|x l Hx _ IH]; cbn [find_byte app].
  - now rewrite N.eqb_refl.
  - destruct (x =? c) eqn:E; [lia|]. rewrite IH. rewrite len_cons. f_equal. lia.
Qed.

Lemma split_at_notin : forall c l, notin c l -> split_at c l = (l, None).
Proof.
  intros c l H. induction H as [|x l Hx _ IH]; cbn [split_at]; [reflexivity|].
  destruct (x =? c) eqn:E; [lia|]. now rewrite IH.
Qed.

Lemma split_at_app : forall c a b, notin c a -> split_at c (a ++ c :: b) = (a, Some b).
Proof.
  intros c a b H. induction H as [|x l Hx _ IH]; cbn [split_at app].
  - now rewrite N.eqb_refl.
  - destruct (x =? c) eqn:E; [lia|]. now rewrite IH.
Qed.

Lemma split_at_inv : forall c s x y, split_at c s = (x, y) ->
  notin c x /\ match y with Some r => s = x ++ c :: r | None => s = x end.
Proof.
  intros c s. induction s as [|b s IH]; intros x y H; cbn [split_at] in H.
  - inversion H; subst. split; [constructor|reflexivity].
  - destruct (b =? c) eqn:E.
    + inversion H; subst. split; [constructor|]. cbn. f_equal. lia.
    + destruct (split_at c s) as [x' y'] eqn:S. inversion H; subst.
      destruct (IH x' y eq_refl) as [Hn Hy]. split.
      * constructor; [lia|exact Hn].
      * destruct y; cbn [app]; now f_equal.
Qed.

Lemma drop_while0_split : forall R, exists m, R = repeat ch_0 m ++ drop_while0 R.
Proof.
  induction R as [|b R [m IH]]; cbn [drop_while0].
  - exists O. reflexivity.
  - destruct (b =? ch_0) eqn:E.
    + exists (S m). cbn [repeat app]. f_equal; [lia|exact IH].
    + exists O. reflexivity.
Qed.

Lemma drop_while0_repeat_app : forall m R, drop_while0 (repeat ch_0 m ++ R) = drop_while0 R.
Proof. induction m as [|m IH]; intros R; cbn [repeat app drop_while0]; [reflexivity|]. now rewrite N.eqb_refl. Qed.

Lemma strip0_split : forall L, exists m, L = strip0 L ++ repeat ch_0 m.
Proof.
  intros L. unfold strip0. destruct (drop_while0_split (rev L)) as [m H].
  exists m. rewrite <- (rev_involutive L) at 1. rewrite H at 1.
  now rewrite rev_app_distr, rev_repeat.
Qed.

Lemma strip0_incl : forall L (P : N -> Prop), Forall P L -> Forall P (strip0 L).
Proof.
  intros L P H. destruct (strip0_split L) as [m E]. rewrite E in H. now apply Forall_app in H.
Qed.

Lemma strip0_app_zeros : forall l m, strip0 (l ++ repeat ch_0 m) = strip0 l.
Proof. intros. unfold strip0. now rewrite rev_app_distr, rev_repeat, drop_while0_repeat_app. Qed.

Lemma strip0_idem : forall L, strip0 (strip0 L) = strip0 L.
Proof. intros L. destruct (strip0_split L) as [m H]. rewrite H at 2. now rewrite strip0_app_zeros. Qed.

Lemma strip0_repeat : forall m, strip0 (repeat ch_0 m) = [].
Proof. intros. change (repeat ch_0 m) with ([] ++ repeat ch_0 m). now rewrite strip0_app_zeros. Qed.

Lemma drop_while0_head : forall R b W, drop_while0 R = b :: W -> b <> ch_0.
Proof.
  induction R as [|x R IH]; intros b W H; cbn [drop_while0] in H; [discriminate|].
  destruct (x =? ch_0) eqn:E; [eauto|]. inversion H; subst. lia.
Qed.

Lemma strip0_last : forall L, strip0 L <> [] -> last_byte (strip0 L) <> ch_0.
Proof.
  intros L H. unfold strip0 in *. destruct (drop_while0 (rev L)) as [|b W] eqn:E; [now elim H|].
  apply drop_while0_head in E. cbn [rev]. unfold last_byte. now rewrite last_last.
Qed.

Lemma strip0_fixed : forall l, last_byte l <> ch_0 -> strip0 l = l.
Proof.
  intros l Hl. induction l as [|b l' _] using rev_ind; [reflexivity|].
  unfold last_byte in Hl. rewrite last_last in Hl.
  unfold strip0. rewrite rev_app_distr. cbn [rev app drop_while0].
  destruct (b =? ch_0) eqn:E; [lia|]. cbn [rev]. now rewrite rev_involutive.
Qed.

Lemma first_non0_spec : forall R i,
  match first_non0 R i with
  | None => drop_while0 R = []
  | Some j => drop_while0 R <> [] /\ j + len (drop_while0 R) = i + len R
  end.
Proof.
  induction R as [|b R IH]; intros i; cbn [first_non0 drop_while0]; [reflexivity|].
  destruct (b =? ch_0).
  - specialize (IH (i + 1)). destruct (first_non0 R (i + 1)); [|exact IH].
    destruct IH as [Hne Hj]. rewrite len_cons. split; [exact Hne|lia].
  - split; [discriminate|lia].
Qed.

Lemma pre_zero_spec : forall l,
  match pre_zero l with
  | None => strip0 l = []
  | Some pz => pz < len l /\ strip0 l = take (len l - pz) l /\ strip0 l <> []
  end.
Proof.
  intros l. unfold pre_zero. pose proof (first_non0_spec (rev l) 0) as H.
  destruct (first_non0 (rev l) 0) as [pz|]; [|unfold strip0; now rewrite H].
  destruct H as [Hne Hpz].
  rewrite (len_rev l), <- (len_rev (drop_while0 (rev l))) in Hpz. fold (strip0 l) in Hpz.
  assert (Hs : strip0 l <> []).
  { intros E. apply Hne. rewrite <- (rev_involutive (drop_while0 (rev l))). fold (strip0 l). now rewrite E. }
  assert (Hpos : len (strip0 l) <> 0) by (intros E; now apply len_zero_nil in E).
  destruct (strip0_split l) as [m Hl].
  split; [lia|]. split; [|exact Hs].
  rewrite Hl at 3. rewrite take_app_le, take_all by lia. reflexivity.
Qed.

Definition dotfrac (z : str) : str := match z with [] => [] | _ => ch_dot :: z end.

Lemma format_no_dot : forall s sig, notin ch_dot s -> format_f64_str s sig = Ok s.
Proof. intros s sig H. unfold format_f64_str. now rewrite find_byte_notin. Qed.

Lemma format_dot : forall (D z : str) sig, notin ch_dot D -> sig + 1 < 2 ^ 64 ->
  let j := sig - len D in
  format_f64_str (D ++ ch_dot :: z) sig
  = Ok (if j <=? len z then D ++ dotfrac (strip0 (take j z)) else D ++ ch_dot :: z).
Proof.
  intros D z sig HD Hsig j. unfold format_f64_str. rewrite find_byte_app by exact HD. fold j.
  destruct (N.eqb_spec j 0) as [Ej|Ej].
  - rewrite Ej, (proj2 (N.leb_le 0 _) (N.le_0_l _)), take_0, take_app_le, take_all by lia.
    cbn [strip0 rev drop_while0 dotfrac]. now rewrite app_nil_r.
  - unfold checked_add. rewrite (proj2 (N.ltb_lt (len D + 1 + j) _)) by lia. cbn [bind].
    rewrite len_app, len_cons.
    destruct (N.leb_spec j (len z)) as [Hjz|Hjz];
      [rewrite (proj2 (N.leb_le _ _)) by lia|now rewrite (proj2 (N.leb_gt _ _)) by lia].
    replace (D ++ ch_dot :: z) with ((D ++ [ch_dot]) ++ z) by (now rewrite <- app_assoc).
    assert (HlD : len (D ++ [ch_dot]) = len D + 1) by (rewrite len_app, len_cons, len_nil; lia).
    rewrite drop_app_exact by now rewrite HlD.
    pose proof (pre_zero_spec (take j z)) as Hp. rewrite len_take, (proj2 (N.min_l_iff _ _) Hjz) in Hp.
    destruct (pre_zero (take j z)) as [pz|].
    + destruct Hp as [Hpz [Hs Hne]]. rewrite take_app_ge, HlD by (rewrite HlD; lia).
      replace (len D + 1 + j - pz - (len D + 1)) with (j - pz) by lia.
      replace (take (j - pz) z) with (strip0 (take j z))
        by (rewrite Hs; unfold take; rewrite firstn_firstn; f_equal; lia).
      rewrite <- app_assoc. now destruct (strip0 (take j z)).
    + rewrite Hp, take_app_le, take_app_le, take_all by (rewrite ?HlD; lia). cbn [dotfrac].
      now rewrite app_nil_r.
Qed.

Lemma format_core : forall (D L : str) sig,
  notin ch_dot D -> sig + 1 < 2 ^ 64 ->
  format_f64_str (D ++ dotfrac (strip0 L)) sig
  = Ok (D ++ dotfrac (strip0 (take (sig - len D) L))).
Proof.
  intros D L sig HD Hsig. destruct (strip0_split L) as [m HL].
  pose proof (strip0_idem L) as Hz. set (z := strip0 L) in *.
  rewrite HL. clearbody z.
  destruct z as [|z0 zr].
  - cbn [dotfrac app]. rewrite app_nil_r, take_repeat, strip0_repeat. cbn [dotfrac]. rewrite app_nil_r.
    now apply format_no_dot.
  - cbn [dotfrac]. rewrite format_dot by assumption.
    destruct (N.leb_spec (sig - len D) (len (z0 :: zr))) as [Hj|Hj].
    + now rewrite take_app_le.
    + now rewrite take_app_ge, take_repeat, strip0_app_zeros, Hz by lia.
Qed.

Definition digit (b : N) : Prop := 48 <= b <= 57.

Lemma is_digit_iff : forall b, is_digit b = true <-> digit b.
Proof. intros b. unfold is_digit, digit, ch_0. lia. Qed.

Lemma forallb_digit : forall l, forallb is_digit l = true <-> Forall digit l.
Proof.
  intros l. rewrite forallb_forall, Forall_forall. split; intros H x Hx; apply is_digit_iff; auto.
Qed.

Lemma digit_notin : forall c l, ~ digit c -> Forall digit l -> notin c l.
Proof. intros c l Hc H. unfold notin. eapply Forall_impl; [|exact H]. intros a Ha ->. auto. Qed.

Lemma val_nil : val [] = 0.
Proof. reflexivity. Qed.

Lemma val_app1 : forall l b, val (l ++ [b]) = val l * 10 + (b - 48).
Proof. intros. unfold val. rewrite fold_left_app. reflexivity. Qed.

Lemma val_single : forall b, val [b] = b - 48.
Proof. intros. change [b] with ([] ++ [b]). rewrite val_app1, val_nil. lia. Qed.

Lemma val_app : forall b a, val (a ++ b) = val a * 10 ^ len b + val b.
Proof.
  induction b as [|x b IH] using rev_ind; intros a.
  - rewrite app_nil_r, len_nil, val_nil. change (10 ^ 0) with 1. lia.
  - rewrite app_assoc, !val_app1, IH, len_app, len_cons, len_nil, N.pow_add_r.
    change (10 ^ (1 + 0)) with 10. lia.
Qed.

Lemma val_repeat0 : forall m, val (repeat ch_0 m) = 0.
Proof.
  induction m as [|m IH]; [reflexivity|]. cbn [repeat]. rewrite repeat_cons, val_app1, IH. reflexivity.
Qed.

Lemma val_lt : forall l, Forall digit l -> val l < 10 ^ len l.
Proof.
  induction l as [|x l IH] using rev_ind; intros H.
  - rewrite val_nil, len_nil. change (10 ^ 0) with 1. lia.
  - apply Forall_app in H. destruct H as [Hl Hx]. inversion Hx as [|? ? Hd _]; subst.
    specialize (IH Hl). rewrite val_app1, len_app, len_cons, len_nil, N.pow_add_r.
    change (10 ^ (1 + 0)) with 10. unfold digit in Hd. lia.
Qed.

Lemma pad_length : forall k r, length (pad_digits k r) = k.
Proof. induction k as [|k IH]; intros r; cbn [pad_digits]; [reflexivity|]. rewrite app_length, IH. cbn. lia. Qed.

Lemma pad_len : forall k r, len (pad_digits k r) = N.of_nat k.
Proof. intros. unfold len. now rewrite pad_length. Qed.

Lemma pad_digit : forall k r, Forall digit (pad_digits k r).
Proof.
  induction k as [|k IH]; intros r; cbn [pad_digits]; [constructor|].
  apply Forall_app. split; [apply IH|]. constructor; [|constructor].
  unfold digit, ch_0. pose proof (N.mod_upper_bound r 10). lia.
Qed.

Lemma pad_val : forall k r, val (pad_digits k r) = r mod 10 ^ N.of_nat k.
Proof.
  induction k as [|k IH]; intros r; cbn [pad_digits].
  - rewrite val_nil. change (10 ^ N.of_nat 0) with 1. now rewrite N.mod_1_r.
  - rewrite val_app1, IH. rewrite Nat2N.inj_succ, N.pow_succ_r'.
    rewrite (N.mod_mul_r r 10 (10 ^ N.of_nat k)) by (try apply N.pow_nonzero; lia).
    generalize (r mod 10) ((r / 10) mod 10 ^ N.of_nat k). unfold ch_0. lia.
Qed.

Lemma pad_unique : forall l, Forall digit l -> l = pad_digits (length l) (val l).
Proof.
  induction l as [|x l IH] using rev_ind; intros H; [reflexivity|].
  apply Forall_app in H. destruct H as [Hl Hx]. inversion Hx as [|? ? Hd _]; subst.
  rewrite app_length. cbn [length]. replace (length l + 1)%nat with (S (length l)) by lia.
  cbn [pad_digits]. rewrite val_app1. unfold digit in Hd.
  replace ((val l * 10 + (x - 48)) / 10) with (val l) by lia.
  replace ((val l * 10 + (x - 48)) mod 10) with (x - 48) by lia.
  rewrite <- IH by exact Hl. f_equal. f_equal. unfold ch_0. lia.
Qed.

Lemma pad_take : forall s j r,
  take j (pad_digits s r) = pad_digits (Nat.min (N.to_nat j) s) (r / 10 ^ (N.of_nat s - j)).
Proof.
  intros s j r. unfold take. revert r. induction s as [|s IH]; intros r.
  - now rewrite Nat.min_0_r, firstn_nil.
  - destruct (Nat.le_gt_cases (S s) (N.to_nat j)) as [Hge|Hlt].
    + rewrite firstn_all2, Nat.min_r by (rewrite ?pad_length; exact Hge).
      replace (N.of_nat (S s) - j) with 0 by lia. now rewrite N.div_1_r.
    + cbn [pad_digits]. rewrite firstn_app, pad_length.
      replace (N.to_nat j - s)%nat with O by lia. cbn [firstn]. rewrite app_nil_r, IH.
      rewrite N.div_div, <- N.pow_succ_r', !Nat.min_l by (try apply N.pow_nonzero; lia).
      do 3 f_equal. lia.
Qed.

Definition canon (l : str) : Prop :=
  Forall digit l /\ l <> [] /\ (forall b t, l = b :: t -> t <> [] -> b <> 48).

Lemma canonical_int_iff : forall l, canonical_int l = true <-> canon l.
Proof.
  intros l. unfold canonical_int, canon. rewrite andb_true_iff, forallb_digit.
  destruct l as [|b [|c t]].
  - split; [intros [_ H]; discriminate|intros [_ [H _]]; now elim H].
  - split; [intros [H _]|intros [H _]]; auto. split; [exact H|]. split; [discriminate|].
    intros b0 t0 E Ht. inversion E; subst. now elim Ht.
  - unfold ch_0. split.
    + intros [H Hb]. split; [exact H|]. split; [discriminate|]. intros b0 t0 E _. inversion E; subst. lia.
    + intros [H [_ Hb]]. split; [exact H|]. specialize (Hb b (c :: t) eq_refl).
      assert (b <> 48) by (apply Hb; discriminate). lia.
Qed.

Lemma val_lower : forall b t, Forall digit (b :: t) -> b <> 48 -> 10 ^ len t <= val (b :: t).
Proof.
  intros b t H Hb. inversion H as [|? ? Hd _]; subst.
  change (b :: t) with ([b] ++ t). rewrite val_app, val_single. unfold digit in Hd.
  pose proof (pow10_pos (len t)). nia.
Qed.

Lemma canon_head : forall b t, canon (b :: t) -> 0 < val (b :: t) -> b <> 48.
Proof.
  intros b [|c t] [_ [_ Hh]] Hv; [rewrite val_single in Hv; lia|]. eapply Hh; [reflexivity|discriminate].
Qed.

Lemma canon_snoc : forall l x, canon l -> 0 < val l -> digit x -> canon (l ++ [x]).
Proof.
  intros [|b t] x Hc Hv Hx; [discriminate Hv|].
  split; [apply Forall_app; split; [apply Hc|now constructor]|]. split; [discriminate|].
  intros b0 t0 E _. injection E as <- _. exact (canon_head b t Hc Hv).
Qed.

Lemma canon_zero : forall l, canon l -> val l = 0 -> l = [48].
Proof.
  intros l [Hd [Hne Hh]] Hv. destruct l as [|b t]; [now elim Hne|].
  destruct t as [|c t].
  - rewrite val_single in Hv. inversion Hd as [|? ? Hb _]; subst. unfold digit in Hb. f_equal. lia.
  - assert (Hb : b <> 48) by (eapply Hh; [reflexivity|discriminate]).
    pose proof (val_lower b (c :: t) Hd Hb) as Hl. pose proof (pow10_pos (len (c :: t))). lia.
Qed.

Lemma canon_bounds : forall l, canon l -> 0 < val l -> 10 ^ (len l - 1) <= val l < 10 ^ len l.
Proof.
  intros l Hc Hv. split; [|apply val_lt, Hc].
  destruct l as [|b t]; [discriminate Hv|]. rewrite len_cons.
  replace (1 + len t - 1) with (len t) by lia. apply val_lower; [apply Hc|exact (canon_head b t Hc Hv)].
Qed.

Lemma pow10_lt_inv : forall a b, 10 ^ a < 10 ^ b -> a < b.
Proof. intros a b H. apply (N.pow_lt_mono_r_iff 10); [lia|exact H]. Qed.

Lemma canon_unique : forall l1 l2, canon l1 -> canon l2 -> val l1 = val l2 -> l1 = l2.
Proof.
  intros l1 l2 H1 H2 Hv. destruct (N.eq_dec (val l1) 0) as [H0|H0].
  - rewrite (canon_zero l1 H1 H0). rewrite (canon_zero l2 H2) by lia. reflexivity.
  - pose proof (canon_bounds l1 H1 ltac:(lia)) as [L1 U1].
    pose proof (canon_bounds l2 H2 ltac:(lia)) as [L2 U2].
    assert (Hlen : len l1 = len l2).
    { assert (len l1 - 1 < len l2) by (apply pow10_lt_inv; lia).
      assert (len l2 - 1 < len l1) by (apply pow10_lt_inv; lia).
      destruct H1 as [_ [N1 _]], H2 as [_ [N2 _]].
      destruct l1; [now elim N1|]. destruct l2; [now elim N2|]. rewrite !len_cons in *. lia. }
    destruct H1 as [D1 _], H2 as [D2 _].
    rewrite (pad_unique l1 D1), (pad_unique l2 D2). unfold len in Hlen. f_equal; lia.
Qed.

Lemma digits_small : forall n, n < 10 -> canon [ch_0 + n] /\ val [ch_0 + n] = n.
Proof.
  intros n Hn. split; [|rewrite val_single; unfold ch_0; lia].
  split; [constructor; [unfold digit, ch_0; lia|constructor]|]. split; [discriminate|].
  intros b t E Ht. injection E as _ <-. now elim Ht.
Qed.

Lemma digits_fuel_spec : forall f n, n < 2 ^ N.of_nat (S f) ->
  canon (digits_fuel (S f) n) /\ val (digits_fuel (S f) n) = n.
Proof.
  induction f as [|f IH]; intros n Hn;
    change (digits_fuel (S ?g) n)
      with (if n <? 10 then [ch_0 + n] else digits_fuel g (n / 10) ++ [ch_0 + n mod 10]);
    destruct (N.ltb_spec n 10) as [Hlt|Hge]; try (now apply digits_small).
  - change (2 ^ N.of_nat 1) with 2 in Hn. lia.
  - rewrite Nat2N.inj_succ, N.pow_succ_r' in Hn.
    assert (Hq : n / 10 < 2 ^ N.of_nat (S f)) by lia.
    destruct (IH (n / 10) Hq) as [Hc Hv].
    split; [|rewrite val_app1, Hv; unfold ch_0; lia].
    apply canon_snoc; [exact Hc|lia|unfold digit, ch_0; pose proof (N.mod_upper_bound n 10); lia].
Qed.

Lemma digits_of_spec : forall n, canon (digits_of n) /\ val (digits_of n) = n.
Proof.
  intros n. unfold digits_of. apply digits_fuel_spec.
  pose proof (N.size_gt n) as H. rewrite Nat2N.inj_succ, N2Nat.id, N.pow_succ_r'. lia.
Qed.

Lemma digits_of_canon : forall n, canon (digits_of n).
Proof. intros. apply digits_of_spec. Qed.

Lemma digits_of_val : forall n, val (digits_of n) = n.
Proof. intros. apply digits_of_spec. Qed.

Lemma digits_of_unique : forall l, canon l -> l = digits_of (val l).
Proof. intros l H. apply canon_unique; [exact H|apply digits_of_canon|now rewrite digits_of_val]. Qed.

Lemma digits_of_len_pos : forall n, 1 <= len (digits_of n).
Proof.
  intros n. destruct (digits_of_canon n) as [_ [Hne _]]. destruct (digits_of n); [now elim Hne|].
  rewrite len_cons. lia.
Qed.

Lemma digits_of_len_bounds : forall n,
  n < 10 ^ len (digits_of n) /\ (0 < n -> 10 ^ (len (digits_of n) - 1) <= n).
Proof.
  intros n. pose proof (digits_of_canon n) as Hc. split.
  - rewrite <- (digits_of_val n) at 1. apply val_lt. apply Hc.
  - intros Hn. rewrite <- (digits_of_val n) in Hn. pose proof (canon_bounds _ Hc Hn) as [L _].
    now rewrite digits_of_val in L.
Qed.

Lemma digits_of_0 : digits_of 0 = [48].
Proof. reflexivity. Qed.

Lemma pow10_split : forall k s, k <= s -> 10 ^ k * 10 ^ (s - k) = 10 ^ s.
Proof. intros. rewrite <- N.pow_add_r. f_equal. lia. Qed.

(** Also for [b = 0], where every quotient is 0. *)
Lemma mul_div_div : forall a b c, c <> 0 -> a * c / b / c = a / b.
Proof.
  intros a b c Hc. destruct (N.eq_dec b 0) as [->|Hb].
  - replace (a * c / 0) with 0 by now destruct (a * c). replace (a / 0) with 0 by now destruct a.
    now apply N.div_0_l.
  - rewrite N.div_div by assumption. now apply N.div_mul_cancel_r.
Qed.

Lemma div_mod_swap : forall n A B, A <> 0 -> B <> 0 -> (n / A) mod B = (n mod (A * B)) / A.
Proof.
  intros n A B HA HB. rewrite (N.mod_mul_r n A B HA HB).
  rewrite (N.mul_comm A), N.div_add by exact HA.
  rewrite (N.div_small (n mod A) A) by (apply N.mod_upper_bound; exact HA). reflexivity.
Qed.

(** The number written [v.w] with [w] below the unit [P], scaled by [Q]. *)
Lemma shift_div_mod : forall v w P Q, w < P -> Q <> 0 ->
  (v * P + w) * Q / (P * Q) = v /\ (v * P + w) * Q mod (P * Q) = w * Q.
Proof.
  intros v w P Q Hw HQ.
  assert (Hlt : w * Q < P * Q) by (apply N.mul_lt_mono_pos_r; lia).
  assert (E : (v * P + w) * Q = P * Q * v + w * Q) by lia.
  split; symmetry; [eapply N.div_unique|eapply N.mod_unique]; eassumption.
Qed.

Lemma frac_part_eq : forall k r, frac_part k r = dotfrac (strip0 (pad_digits k r)).
Proof. intros. unfold frac_part, dotfrac. destruct (strip0 (pad_digits k r)); reflexivity. Qed.

Lemma render_fix_eq : forall t k,
  render_fix t k = digits_of (t / 10 ^ k) ++ dotfrac (strip0 (pad_digits (N.to_nat k) (t mod 10 ^ k))).
Proof. intros. unfold render_fix. now rewrite frac_part_eq. Qed.

Lemma digits_of_no_dot : forall n, notin ch_dot (digits_of n).
Proof. intros. apply digit_notin; [unfold digit, ch_dot; lia|apply digits_of_canon]. Qed.

Lemma format_render : forall n s sig, sig + 1 < 2 ^ 64 ->
  let d := len (digits_of (n / 10 ^ s)) in
  let k := N.min (sig - d) s in
  format_f64_str (render_fix n s) sig = Ok (render_fix (n / 10 ^ (s - k)) k).
Proof.
  intros n s sig Hsig d k. rewrite !render_fix_eq, format_core by (try apply digits_of_no_dot; exact Hsig).
  fold d. rewrite pad_take, N2Nat.id, <- N2Nat.inj_min. fold k.
  assert (Hk : k <= s) by apply N.le_min_r.
  replace (s - (sig - d)) with (s - k) by (unfold k; clearbody d; lia).
  rewrite N.div_div, div_mod_swap, (N.mul_comm (10 ^ (s - k))), pow10_split by (try apply pow10_nz; exact Hk).
  reflexivity.
Qed.

Lemma format_trunc : forall a b sig, sig + 1 < 2 ^ 64 ->
  format_f64_str (render_fix (a * 10 ^ sig / b) sig) sig = Ok (trunc_numeral a b sig).
Proof.
  intros a b sig Hsig. rewrite format_render by exact Hsig.
  rewrite mul_div_div by apply pow10_nz. unfold trunc_numeral.
  set (k := sig - len (digits_of (a / b))).
  assert (Hk : k <= sig) by apply N.le_sub_l.
  rewrite (proj2 (N.min_l_iff k sig) Hk).
  rewrite <- (pow10_split k sig Hk), N.mul_assoc, mul_div_div by apply pow10_nz.
  reflexivity.
Qed.

Lemma render_fix_bytes : forall t k, Forall (fun x => digit x \/ x = ch_dot) (render_fix t k).
Proof.
  intros t k. rewrite render_fix_eq. apply Forall_app. split.
  - eapply Forall_impl; [|apply digits_of_canon]. auto.
  - unfold dotfrac.
    destruct (strip0 (pad_digits (N.to_nat k) (t mod 10 ^ k))) eqn:E; [constructor|].
    constructor; [now right|]. rewrite <- E. eapply Forall_impl; [|apply strip0_incl, pad_digit]. auto.
Qed.

Lemma render_fix_no_space : forall t k, notin ch_space (render_fix t k).
Proof.
  intros. unfold notin. eapply Forall_impl; [|apply render_fix_bytes].
  intros x [Hd| ->]; unfold digit, ch_space, ch_dot in *; lia.
Qed.

Lemma pad_shift : forall z k, Forall digit z -> len z <= k ->
  pad_digits (N.to_nat k) (val z * 10 ^ (k - len z)) = z ++ repeat ch_0 (N.to_nat (k - len z)).
Proof.
  intros z k Hd Hk. set (m := N.to_nat (k - len z)).
  assert (Hz : Forall digit (z ++ repeat ch_0 m))
    by (apply Forall_app; split; [exact Hd|apply Forall_repeat; unfold digit, ch_0; lia]).
  rewrite (pad_unique _ Hz), app_length, repeat_length, val_app, val_repeat0, len_repeat.
  unfold m, len in *. f_equal; [lia|]. rewrite N2Nat.id. lia.
Qed.

(** [ip ++ dotfrac fp] with [fp] of at most [k] digits denotes
    [(val ip * 10^len fp + val fp) * 10^(k - len fp)] in units of [10^-k].
    Rendering that number gives the string back ([render_fix_parts]), and every
    rendering is of this form ([render_fix_parse]). *)
Lemma render_fix_parts : forall ip fp k, canon ip -> Forall digit fp -> len fp <= k ->
  render_fix ((val ip * 10 ^ len fp + val fp) * 10 ^ (k - len fp)) k = ip ++ dotfrac (strip0 fp).
Proof.
  intros ip fp k Hc Hd Hk. rewrite render_fix_eq.
  destruct (shift_div_mod (val ip) (val fp) (10 ^ len fp) (10 ^ (k - len fp))) as [Hq Hr];
    [now apply val_lt|apply pow10_nz|].
  rewrite pow10_split in Hq, Hr by exact Hk.
  rewrite Hq, Hr, pad_shift, strip0_app_zeros, <- digits_of_unique by assumption. reflexivity.
Qed.

Lemma numeral_nil : forall v k, (v * 10 ^ len [] + val []) * 10 ^ (k - len []) = v * 10 ^ k.
Proof. intros. rewrite len_nil, val_nil, N.sub_0_r, N.pow_0_r. lia. Qed.

Lemma render_fix_int : forall ip k, canon ip -> render_fix (val ip * 10 ^ k) k = ip.
Proof.
  intros ip k Hc. rewrite <- numeral_nil, render_fix_parts by (try apply N.le_0_l; auto).
  apply app_nil_r.
Qed.

Lemma strip0_pad_decomp : forall k r,
  let z := strip0 (pad_digits (N.to_nat k) r) in
  Forall digit z /\ len z <= k /\ val z * 10 ^ (k - len z) = r mod 10 ^ k.
Proof.
  intros k r z. destruct (strip0_split (pad_digits (N.to_nat k) r)) as [m E]. fold z in E.
  pose proof (pad_len (N.to_nat k) r) as Hl. pose proof (pad_val (N.to_nat k) r) as Hv.
  rewrite E, len_app, len_repeat, N2Nat.id in Hl.
  rewrite E, val_app, val_repeat0, len_repeat, N2Nat.id, N.add_0_r in Hv.
  assert (Hm : N.of_nat m = k - len z) by (clear - Hl; lia). rewrite <- Hm.
  split; [apply strip0_incl, pad_digit|]. split; [clear - Hl; lia|exact Hv].
Qed.

Lemma render_fix_parse : forall t k,
  let ip := digits_of (t / 10 ^ k) in
  let fp := strip0 (pad_digits (N.to_nat k) (t mod 10 ^ k)) in
  Forall digit fp /\ len fp <= k /\ (val ip * 10 ^ len fp + val fp) * 10 ^ (k - len fp) = t.
Proof.
  intros t k ip fp. destruct (strip0_pad_decomp k (t mod 10 ^ k)) as [Hd [Hk Hv]]. fold fp in Hd, Hk, Hv.
  rewrite N.mod_mod in Hv by apply pow10_nz.
  split; [exact Hd|]. split; [exact Hk|].
  unfold ip. rewrite digits_of_val, N.mul_add_distr_r, <- N.mul_assoc, Hv, pow10_split by exact Hk.
  rewrite N.mul_comm. symmetry. apply N.div_mod, pow10_nz.
Qed.

Lemma numeral_sb_complete : forall a b sig, numeral_sb (trunc_numeral a b sig) a b sig = true.
Proof.
  intros a b sig. unfold numeral_sb, trunc_numeral.
  set (k := sig - len (digits_of (a / b))). set (T := a * 10 ^ k / b).
  destruct (render_fix_parse T k) as [Hd [Hk Hv]]. rewrite render_fix_eq.
  replace (T / 10 ^ k) with (a / b) in * by (symmetry; apply mul_div_div, pow10_nz).
  pose proof (strip0_last (pad_digits (N.to_nat k) (T mod 10 ^ k))) as Hlast.
  set (fp := strip0 _) in *. clearbody fp T k.
  apply forallb_digit in Hd.
  rewrite digits_of_val in Hv.
  destruct fp as [|z0 zr]; cbn [dotfrac].
  - rewrite app_nil_r, split_at_notin by apply digits_of_no_dot. rewrite numeral_nil in Hv.
    rewrite !andb_true_iff, canonical_int_iff, !N.eqb_eq, digits_of_val.
    auto using digits_of_canon.
  - rewrite split_at_app by apply digits_of_no_dot.
    rewrite !andb_true_iff, !negb_true_iff, canonical_int_iff, !N.eqb_eq, !N.eqb_neq, N.leb_le, digits_of_val.
    split; [split; [apply digits_of_canon|reflexivity]|].
    repeat split; try assumption; [rewrite len_cons; lia|apply Hlast; discriminate].
Qed.

Lemma numeral_sb_sound : forall s a b sig, numeral_sb s a b sig = true -> s = trunc_numeral a b sig.
Proof.
  intros s a b sig H. unfold numeral_sb in H. unfold trunc_numeral.
  set (k := sig - len (digits_of (a / b))) in *. clearbody k.
  destruct (split_at ch_dot s) as [ip ofp] eqn:Es. apply split_at_inv in Es. destruct Es as [_ Es].
  destruct ofp as [fp|]; subst s.
  (* the value equation fixes the string; the check of the integer part against [a / b] is not used *)
  - rewrite !andb_true_iff, !negb_true_iff, canonical_int_iff, forallb_digit, !N.eqb_eq, !N.eqb_neq, N.leb_le in H.
    destruct H as [[Hc _] [[[[Hd Hne] Hlast] Hk] Hv]].
    assert (Hfp : fp <> []) by (intros ->; now apply Hne).
    rewrite <- Hv, render_fix_parts, strip0_fixed by assumption.
    destruct fp; [now elim Hfp|reflexivity].
  - rewrite !andb_true_iff, canonical_int_iff, !N.eqb_eq in H. destruct H as [[Hc _] Hv].
    rewrite <- Hv. symmetry. now apply render_fix_int.
Qed.

Lemma numeral_sb_spec : forall s a b sig,
  numeral_sb s a b sig = true <-> s = trunc_numeral a b sig.
Proof.
  intros s a b sig. split; [apply numeral_sb_sound|]. intros ->. apply numeral_sb_complete.
Qed.

Lemma trunc_numeral_int : forall p u sig, 10 ^ sig <= p / u ->
  trunc_numeral p u sig = digits_of (p / u).
Proof.
  intros p u sig Hq. unfold trunc_numeral.
  pose proof (digits_of_len_bounds (p / u)) as [Hub _].
  assert (Hd : sig < len (digits_of (p / u))) by (apply pow10_lt_inv; lia).
  rewrite (proj2 (N.sub_0_le _ _)) by lia. unfold render_fix.
  rewrite N.pow_0_r, N.mul_1_r, N.div_1_r, N.mod_1_r. apply app_nil_r.
Qed.

Lemma trunc_numeral_zero : forall b sig, b <> 0 -> trunc_numeral 0 b sig = [ch_0].
Proof.
  intros b sig Hb. unfold trunc_numeral. rewrite !N.mul_0_l, !(N.div_0_l b Hb).
  apply (render_fix_int [ch_0]). now apply canonical_int_iff.
Qed.

Lemma trunc_numeral_no_space : forall a b sig, notin ch_space (trunc_numeral a b sig).
Proof. intros. unfold trunc_numeral. apply render_fix_no_space. Qed.

Lemma str_eqb_eq : forall x y, str_eqb x y = true <-> x = y.
Proof.
  induction x as [|a x IH]; intros [|b y]; cbn [str_eqb]; split; intros H; try discriminate; try reflexivity.
  - apply andb_true_iff in H. destruct H as [H1 H2]. apply N.eqb_eq in H1. apply IH in H2. now subst.
  - inversion H; subst. rewrite N.eqb_refl. cbn [andb]. now apply IH.
Qed.

(** The shape shared by the boolean specifications: up to the first space the
    numeral of [a / b], after it exactly [X] (which may depend on the numeral's
    length, for the padding). *)
Lemma numeral_then_sb : forall s a b sig (X : str -> str),
  (let '(num, orest) := split_at ch_space s in
   match orest with
   | None => false
   | Some rest => numeral_sb num a b sig && str_eqb rest (X num)
   end) = true
  <-> s = trunc_numeral a b sig ++ ch_space :: X (trunc_numeral a b sig).
Proof.
  intros s a b sig X. split.
  - destruct (split_at ch_space s) as [num [rest|]] eqn:Es; [|discriminate].
    apply split_at_inv in Es. destruct Es as [_ ->].
    rewrite andb_true_iff, str_eqb_eq. intros [Hn ->]. now rewrite (numeral_sb_sound _ _ _ _ Hn).
  - intros ->. rewrite split_at_app by apply trunc_numeral_no_space.
    rewrite numeral_sb_complete. now apply str_eqb_eq.
Qed.

(** For C05: finite values never print "NaN" or "inf". *)

Definition contains (pat s : str) : Prop := exists pre post, s = pre ++ pat ++ post.
Definition starts_with (pat s : str) : Prop := exists post, s = pat ++ post.
Definition nan_str : str := [78; 97; 78].       (* "NaN" *)
Definition inf_str : str := [105; 110; 102].    (* "inf" *)

Definition numeral_chars (s : str) : Prop :=
  Forall (fun x => digit x \/ x = ch_dot) s /\ (count_occ N.eq_dec s ch_dot <= 1)%nat.

Lemma not_contains_byte : forall c pat s, In c pat -> ~ In c s -> ~ contains pat s.
Proof.
  intros c pat s Hc Hn [pre [post ->]]. apply Hn. apply in_or_app. right. apply in_or_app. now left.
Qed.

Lemma digits_no_dot_count : forall l, Forall digit l -> count_occ N.eq_dec l ch_dot = O.
Proof.
  intros l H. apply count_occ_not_In. intros Hin. rewrite Forall_forall in H.
  specialize (H _ Hin). unfold digit, ch_dot in H. lia.
Qed.

Lemma render_fix_numeral_chars : forall t k, numeral_chars (render_fix t k).
Proof.
  intros t k. split; [apply render_fix_bytes|]. unfold render_fix.
  rewrite count_occ_app, digits_no_dot_count by apply digits_of_canon.
  rewrite frac_part_eq. unfold dotfrac.
  destruct (strip0 (pad_digits (N.to_nat k) (t mod 10 ^ k))) as [|z0 zr] eqn:E; [cbn; lia|].
  rewrite <- E. rewrite count_occ_cons_eq by reflexivity.
  rewrite digits_no_dot_count by (apply strip0_incl, pad_digit). lia.
Qed.

Lemma trunc_numeral_chars : forall a b sig, numeral_chars (trunc_numeral a b sig).
Proof. intros. unfold trunc_numeral. apply render_fix_numeral_chars. Qed.

Lemma numeral_chars_notin : forall c s, numeral_chars s -> ~ digit c -> c <> ch_dot -> ~ In c s.
Proof.
  intros c s [H _] Hd Hc Hin. rewrite Forall_forall in H. destruct (H _ Hin) as [Hx| ->]; auto.
Qed.

Lemma render_fix_head_digit : forall t k, exists b r, render_fix t k = b :: r /\ digit b.
Proof.
  intros t k. unfold render_fix. pose proof (digits_of_canon (t / 10 ^ k)) as [Hd [Hne _]].
  destruct (digits_of (t / 10 ^ k)) as [|b r]; [now elim Hne|]. inversion Hd; subst.
  exists b. eexists. split; [reflexivity|assumption].
Qed.

(** Without an 'N' there is no "NaN", without an 'f' no "inf". *)
Lemma no_nan_inf_bytes : forall s, ~ In 78 s -> ~ In 102 s ->
  ~ contains nan_str s /\ ~ contains inf_str s.
Proof.
  intros s H78 H102. split; [apply (not_contains_byte 78)|apply (not_contains_byte 102)]; cbn; auto.
Qed.

Lemma numeral_no_nan_inf : forall num, numeral_chars num ->
  ~ contains nan_str num /\ ~ contains inf_str num.
Proof.
  intros num Hn. apply no_nan_inf_bytes; apply (numeral_chars_notin _ _ Hn); unfold digit, ch_dot; lia.
Qed.

Lemma no_nan_inf : forall num suffix, numeral_chars num -> ~ In 78 suffix -> ~ In 102 suffix ->
  ~ contains nan_str (num ++ [ch_space] ++ suffix) /\ ~ contains inf_str (num ++ [ch_space] ++ suffix).
Proof.
  intros num suffix Hn H78 H102.
  apply no_nan_inf_bytes; intros Hin; apply in_app_or in Hin; destruct Hin as [Hin|[Hin|Hin]];
    try discriminate Hin; try contradiction;
    revert Hin; apply numeral_chars_notin; try exact Hn; unfold digit, ch_dot; lia.
Qed.
