(** [EntryList::push]: for every interleaving of the memory accesses of any
    number of overlapping pushes, including spurious CAS failures, the list
    always spells the nodes whose push has returned, in some order, followed
    by the initial list — each exactly once. *)
From Coq Require Import Permutation.
From DivanV Require Import Base.Res Model.ListPush Proofs.ListFacts.
Local Open Scope N_scope.

Fixpoint spells (next : N -> option N) (h : option N) (L : list N) : Prop :=
  match L with
  | [] => h = None
  | x :: tl => h = Some x /\ spells next (next x) tl
  end.

Lemma upd_same : forall A (f : N -> A) k v, upd f k v k = v.
Proof. intros. unfold upd. rewrite N.eqb_refl. reflexivity. Qed.

Lemma upd_other : forall A (f : N -> A) k v x, x <> k -> upd f k v x = f x.
Proof. intros A f k v x H. unfold upd. apply N.eqb_neq in H. rewrite H. reflexivity. Qed.

Lemma spells_upd : forall next i v L h, ~ In i L -> spells next h L -> spells (upd next i v) h L.
Proof.
  intros next i v. induction L as [|x tl IH]; intros h Hn H; cbn in *; [exact H|].
  destruct H as [H1 H2]. split; [exact H1|]. rewrite upd_other by (intro E; apply Hn; left; exact E).
  apply IH; [intro Hin; apply Hn; right; exact Hin|exact H2].
Qed.

Lemma opt_eqb_spec : forall a b, opt_eqb a b = true <-> a = b.
Proof.
  intros [x|] [y|]; cbn; split; intro H; try discriminate; try reflexivity.
  - apply N.eqb_eq in H. congruence.
  - inversion H. apply N.eqb_refl.
Qed.

Lemma spells_walk : forall next L h, spells next h L -> forall fuel, (length L <= fuel)%nat -> walk fuel next h = L.
Proof.
  intros next. induction L as [|x tl IH]; intros h H fuel Hf; cbn in H.
  - subst h. destruct fuel; reflexivity.
  - destruct H as [H1 H2]. subst h. destruct fuel as [|f]; [cbn in Hf; lia|]. cbn. f_equal. apply IH; [exact H2|cbn in Hf; lia].
Qed.

Section Push.
  Variable ops : list N.         (* the nodes being pushed, one operation each *)
  Variable L0 : list N.          (* the list before *)
  Hypothesis ops_fresh : forall i, In i ops -> ~ In i L0.

  (** Where the push of node [i] stands against the nodes [D] pushed so far: it has returned iff
      the node is linked, and between its store and its CAS the node's [next] field holds the
      head it read. *)
  Definition pc_ok (s : lstate) (D : list N) (i : N) : Prop :=
    match l_pc s i with
    | PDone => In i D
    | PCas old => ~ In i D /\ l_next s i = old
    | _ => ~ In i D
    end.

  Record inv (s : lstate) (D : list N) : Prop := {
    inv_spells : spells (l_next s) (l_head s) (D ++ L0);
    inv_nodup : NoDup (D ++ L0);
    inv_sub : forall i, In i D -> In i ops;
    inv_pc : forall i, In i ops -> pc_ok s D i
  }.

  Lemma inv_done : forall s D, inv s D -> forall i, In i ops -> (l_pc s i = PDone <-> In i D).
  Proof.
    intros s D H i Hi. pose proof (inv_pc s D H i Hi) as Hp. unfold pc_ok in Hp.
    destruct (l_pc s i); split; intro H'; try discriminate H'; try reflexivity; try exact Hp; exfalso; apply Hp; exact H'.
  Qed.

  (** A step of the push of [i], which links [i] or nothing, leaves the other pushes where they stand. *)
  Lemma inv_change : forall s D s' D' i,
    inv s D -> In i ops -> (D' = D \/ D' = i :: D) ->
    spells (l_next s') (l_head s') (D' ++ L0) -> NoDup (D' ++ L0) ->
    (forall j, j <> i -> l_pc s' j = l_pc s j /\ l_next s' j = l_next s j) ->
    pc_ok s' D' i -> inv s' D'.
  Proof.
    intros s D s' D' i H Hi HD Hs Hn Ho Hpi. constructor; [exact Hs|exact Hn| |].
    - intros j Hj. destruct HD as [HD|HD]; subst D'; [|destruct Hj as [Hj|Hj]; [subst j; exact Hi|]];
        apply (inv_sub s D H j Hj).
    - intros j Hj. destruct (N.eq_dec j i) as [E|E]; [subst j; exact Hpi|].
      destruct (Ho j E) as [H1 H2]. pose proof (inv_pc s D H j Hj) as Hp. unfold pc_ok in *. rewrite H1, H2.
      destruct HD as [HD|HD]; subst D'; [exact Hp|].
      assert (Hnot : ~ In j D -> ~ In j (i :: D)) by (intros Hnj [Heq|Hin]; [congruence|exact (Hnj Hin)]).
      destruct (l_pc s j); [apply Hnot, Hp|apply Hnot, Hp|split; [apply Hnot|]; apply Hp|right; exact Hp].
  Qed.

  Lemma inv_step : forall s D i b, inv s D -> In i ops -> exists D', inv (push_step s i b) D'.
  Proof.
    intros s D i b H Hi. pose proof (inv_pc s D H i Hi) as Hp. unfold pc_ok in Hp.
    pose proof (ops_fresh i Hi) as Hfresh. unfold push_step. destruct (l_pc s i) as [|old|old|] eqn:Epc.
    - exists D. apply (inv_change s D _ D i H Hi (or_introl eq_refl)); cbn.
      + apply (inv_spells s D H).
      + apply (inv_nodup s D H).
      + intros j E. rewrite upd_other by exact E. split; reflexivity.
      + unfold pc_ok. cbn. rewrite upd_same. exact Hp.
    - (* the store into the node's own next field: the node is not linked yet *)
      exists D. apply (inv_change s D _ D i H Hi (or_introl eq_refl)); cbn.
      + apply spells_upd; [intro Hin; apply in_app_or in Hin; destruct Hin; contradiction|apply (inv_spells s D H)].
      + apply (inv_nodup s D H).
      + intros j E. rewrite !upd_other by exact E. split; reflexivity.
      + unfold pc_ok. cbn. rewrite !upd_same. split; [exact Hp|reflexivity].
    - destruct Hp as [Hni Hnext]. destruct (negb b && opt_eqb (l_head s) old) eqn:Ecas.
      + (* the CAS succeeds: the node, whose next field holds the old head, becomes the head *)
        apply andb_true_iff in Ecas. destruct Ecas as [_ Eh]. apply opt_eqb_spec in Eh.
        exists (i :: D). apply (inv_change s D _ (i :: D) i H Hi (or_intror eq_refl)); cbn.
        * split; [reflexivity|]. rewrite Hnext, <- Eh. apply (inv_spells s D H).
        * constructor; [intro Hin; apply in_app_or in Hin; destruct Hin; contradiction|apply (inv_nodup s D H)].
        * intros j E. rewrite upd_other by exact E. split; reflexivity.
        * unfold pc_ok. cbn. rewrite upd_same. left. reflexivity.
      + (* lost the race (or failed spuriously): retry with the current head *)
        exists D. apply (inv_change s D _ D i H Hi (or_introl eq_refl)); cbn.
        * apply (inv_spells s D H).
        * apply (inv_nodup s D H).
        * intros j E. rewrite upd_other by exact E. split; reflexivity.
        * unfold pc_ok. cbn. rewrite upd_same. exact Hni.
    - exists D. exact H.
  Qed.

  Lemma inv_init : forall h next, spells next h L0 -> NoDup L0 -> inv (push_init h next) [].
  Proof. intros h next Hs Hn. constructor; [exact Hs|exact Hn|intros i []|intros i _ []]. Qed.

  Lemma inv_run : forall sched s D,
    inv s D -> Forall (fun x => In (fst x) ops) sched -> exists D', inv (push_run s sched) D'.
  Proof.
    induction sched as [|[i b] tl IH]; intros s D H Hall; [exists D; exact H|].
    inversion Hall as [|? ? Hi Htl]; subst. cbn [fst] in Hi.
    destruct (inv_step s D i b H Hi) as [D1 H1]. unfold push_run. cbn [fold_left fst snd].
    apply (IH _ D1 H1 Htl).
  Qed.

  Lemma push_linearizable : forall h next sched,
    NoDup ops -> spells next h L0 -> NoDup L0 ->
    Forall (fun x => In (fst x) ops) sched ->
    let s := push_run (push_init h next) sched in
    (forall i, In i ops -> l_pc s i = PDone) ->
    exists D, Permutation D ops /\ NoDup (D ++ L0) /\
              forall fuel, (length (D ++ L0) <= fuel)%nat -> walk fuel (l_next s) (l_head s) = D ++ L0.
  Proof.
    intros h next sched Hnd Hs Hn0 Hall s Hdone.
    destruct (inv_run sched (push_init h next) [] (inv_init h next Hs Hn0) Hall) as [D H]. fold s in H.
    exists D. split; [|split].
    - apply NoDup_Permutation.
      + apply (NoDup_app_l _ _ (inv_nodup s D H)).
      + exact Hnd.
      + intro i. split; [apply (inv_sub s D H)|]. intro Hi. apply (inv_done s D H i Hi). apply Hdone. exact Hi.
    - apply (inv_nodup s D H).
    - intros fuel Hf. apply spells_walk; [apply (inv_spells s D H)|exact Hf].
  Qed.

  Lemma push_always_consistent : forall h next sched,
    spells next h L0 -> NoDup L0 -> Forall (fun x => In (fst x) ops) sched ->
    let s := push_run (push_init h next) sched in
    exists D, (forall i, In i D <-> In i ops /\ l_pc s i = PDone) /\ NoDup (D ++ L0) /\ spells (l_next s) (l_head s) (D ++ L0).
  Proof.
    intros h next sched Hs Hn0 Hall s.
    destruct (inv_run sched (push_init h next) [] (inv_init h next Hs Hn0) Hall) as [D H]. fold s in H.
    exists D. split; [|split; [apply (inv_nodup s D H)|apply (inv_spells s D H)]].
    intro i. split.
    - intro Hi. split; [apply (inv_sub s D H i Hi)|]. apply (inv_done s D H i (inv_sub s D H i Hi)). exact Hi.
    - intros [Hi Hd]. apply (inv_done s D H i Hi). exact Hd.
  Qed.
End Push.

(** The hoisted store refutes it: with [other.next.store] before the loop only,
    two overlapping pushes lose a node.  (Nodes 1 and 2 onto the empty list, load and
    store being one step of [bad_step]: 1 loads and stores None -- once --, 2 loads and stores,
    2's CAS succeeds, 1's CAS fails, retries without storing, succeeds: the list is [1], node 2 is lost.) *)
Definition bad_step (s : lstate) (i : N) : lstate :=
  match l_pc s i with
  | PLoad => {| l_head := l_head s; l_next := upd (l_next s) i (l_head s); l_pc := upd (l_pc s) i (PCas (l_head s)) |}
  | PCas old =>
      if opt_eqb (l_head s) old
      then {| l_head := Some i; l_next := l_next s; l_pc := upd (l_pc s) i PDone |}
      else {| l_head := l_head s; l_next := l_next s; l_pc := upd (l_pc s) i (PCas (l_head s)) |}
  | _ => s
  end.

Example hoisted_store_loses_a_node :
  let s := fold_left bad_step [1; 2; 2; 1; 1] (push_init None (fun _ => None)) in
  l_pc s 1 = PDone /\ l_pc s 2 = PDone /\ walk 5 (l_next s) (l_head s) = [1].
Proof. repeat split; vm_compute; reflexivity. Qed.

(** The hypotheses are satisfiable: two pushes onto a one-element list, interleaved with a lost race. *)
Example push_example :
  let s := push_run (push_init (Some 7) (fun _ => None)) [(1, false); (2, false); (2, false); (2, false); (1, false); (1, false); (1, false); (1, false)] in
  l_pc s 1 = PDone /\ l_pc s 2 = PDone /\ walk 5 (l_next s) (l_head s) = [1; 2; 7].
Proof. repeat split; vm_compute; reflexivity. Qed.
