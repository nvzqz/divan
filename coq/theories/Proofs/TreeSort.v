(** The hereditary statement for whole trees: when every sibling set at every
    depth satisfies the three conditions of [Proofs/TreeCmp.v] and every
    argument list the oracle condition, [sort_forest] returns (no fuel
    exhaustion, no order-violation panic) and the result is the input with
    every sibling set and argument list put in sorted order. *)

From Coq Require Import Permutation.
From DivanV Require Import Base.Res Generated.Consts Model.Natural Model.SortBy Model.ArgCmp
  Model.TreeCmp Proofs.SortCmp Proofs.ArgCmp Proofs.TreeCmp.
Local Open Scope N_scope.

Section Hereditary.
Variable V : Type.
Variable vcmp : V -> V -> comparison.
Variable fparse : bytes -> option V.

Notation arg_cmp := (arg_cmp V vcmp fparse).
Notation sort_node := (sort_node V vcmp fparse).
Notation sort_forest := (sort_forest V vcmp fparse).

Definition sib_ok (l : list tree) : Prop :=
  let S := fun t => In t l in
  addr_identity S /\ loc_addr_uniform S /\ consts_uniform S.

(** [sib_ok] at every depth, and the oracle condition on every argument list. *)
Inductive wf_tree : tree -> Prop :=
| WF_leaf_none : forall a n c l, wf_tree (Leaf a n c l None)
| WF_leaf_args : forall a n c l args,
    oracle_ok_on V vcmp fparse (in_names args) -> wf_tree (Leaf a n c l (Some args))
| WF_parent : forall raw g ch, sib_ok ch -> Forall wf_tree ch -> wf_tree (Parent raw g ch).

(** [sorted_perm attr rev t t']: [t'] is [t] with, at every node, the children
    arranged in a sorted permutation [mid] (for the comparator in the chosen
    direction) and each of them treated in the same way; on a leaf the
    arguments are the names of a sorted permutation of the indexed arguments. *)
Inductive sorted_perm (attr : sort_attr) (rev : bool) : tree -> tree -> Prop :=
| SP_leaf_none : forall a n c l, sorted_perm attr rev (Leaf a n c l None) (Leaf a n c l None)
| SP_leaf_args : forall a n c l args L,
    Permutation (indexed args) L -> ssorted (revc rev (arg_cmp attr)) L ->
    sorted_perm attr rev (Leaf a n c l (Some args)) (Leaf a n c l (Some (map snd L)))
| SP_parent : forall raw g ch mid ch',
    Permutation ch mid -> ssorted (revc rev (cmp_by_attr attr)) mid ->
    Forall2 (sorted_perm attr rev) mid ch' ->
    sorted_perm attr rev (Parent raw g ch) (Parent raw g ch').

Lemma depth_child : forall c ch, In c ch ->
  (depth c <= fold_right (fun c m => Nat.max (depth c) m) 0%nat ch)%nat.
Proof.
  induction ch as [|x r IH]; intros H; [destruct H|].
  simpl. destruct H as [->|H]; [lia|]. specialize (IH H). lia.
Qed.

Lemma sort_children_ok : forall f attr rev l,
  (forall c, In c l -> exists c', sort_node f attr rev c = Ok c' /\ sorted_perm attr rev c c') ->
  exists l',
    (fix go (l : list tree) : res (list tree) :=
       match l with
       | [] => Ok []
       | c :: r => do c' <- sort_node f attr rev c; do r' <- go r; Ok (c' :: r')
       end) l = Ok l' /\ Forall2 (sorted_perm attr rev) l l'.
Proof.
  induction l as [|x r IH]; intros H.
  - exists []. split; [reflexivity|constructor].
  - destruct (H x (or_introl eq_refl)) as (x' & Ex & Sx).
    destruct IH as (r' & Er & Sr); [intros c Hc; apply H; right; exact Hc|].
    exists (x' :: r'). split; [|constructor; assumption].
    rewrite Ex. simpl. rewrite Er. reflexivity.
Qed.

Lemma sort_node_total : forall fuel attr rev t,
  (depth t <= fuel)%nat -> wf_tree t ->
  exists t', sort_node fuel attr rev t = Ok t' /\ sorted_perm attr rev t t'.
Proof.
  induction fuel as [|f IH]; intros attr rev t Hd W.
  - destruct t; simpl in Hd; lia.
  - destruct W as [a n c l|a n c l args OK|raw g ch [H1 [H2 H3]] Wch].
    + exists (Leaf a n c l None). split; [reflexivity|constructor].
    + destruct (sort_by_ok (D args) _ (tpo_rev_arg_cmp_D V vcmp fparse args OK attr rev) _
                  (Forall_D_indexed args)) as (E & PL & SL).
      simpl. rewrite E. simpl. eexists. split; [reflexivity|].
      apply SP_leaf_args; assumption.
    + set (S := fun t => In t ch).
      assert (FS : Forall S ch) by (apply Forall_forall; intros x Hx; exact Hx).
      destruct (sort_by_ok S _ (tpo_rev S _ rev (tpo_cmp_by_attr S H1 H2 H3 attr)) ch FS)
        as (E & PM & SM).
      set (mid := isort (revc rev (cmp_by_attr attr)) ch) in *.
      destruct (sort_children_ok f attr rev mid) as (ch' & Ech & Sch).
      { intros c Hc. apply (Permutation_in _ (Permutation_sym PM)) in Hc.
        apply IH.
        - simpl in Hd. pose proof (depth_child c ch Hc). lia.
        - exact (proj1 (Forall_forall _ _) Wch c Hc). }
      exists (Parent raw g ch'). split.
      * cbn [TreeCmp.sort_node]. rewrite E. cbn [bind]. rewrite Ech. reflexivity.
      * apply (SP_parent attr rev raw g ch mid ch'); assumption.
Qed.

Lemma sort_forest_total : forall attr rev ts,
  sib_ok ts -> Forall wf_tree ts ->
  exists ts', sort_forest attr rev ts = Ok ts' /\
    sorted_perm attr rev (Parent [] None ts) (Parent [] None ts') /\
    tree_perm (Parent [] None ts) (Parent [] None ts').
Proof.
  intros attr rev ts Hs Hw.
  destruct (sort_node_total (S (depth (Parent [] None ts))) attr rev (Parent [] None ts)) as (t' & E & SP).
  - lia.
  - apply WF_parent; assumption.
  - inversion SP; subst. exists ch'.
    assert (EF : sort_forest attr rev ts = Ok ch').
    { unfold TreeCmp.sort_forest. rewrite E. reflexivity. }
    split; [exact EF|split; [exact SP|]].
    apply (sort_forest_perm V vcmp fparse attr rev). exact EF.
Qed.

End Hereditary.

(** Satisfiability by a non-trivial forest (exact decimal oracle): a module with
    two benchmarks, one of them with arguments, beside a top-level benchmark. *)
Definition ex_loc1 : loc := ([97], (10, 1)).
Definition ex_loc2 : loc := ([97], (5, 1)).
Definition ex_loc3 : loc := ([98], (1, 1)).
Definition ex_b2 : tree := Leaf 0 [98; 50] None ex_loc1 (Some [[49; 48]; [57]; [49; 46; 53]]).
Definition ex_b10 : tree := Leaf 1 [98; 49; 48] None ex_loc2 None.
Definition ex_mod : tree := Parent [109] None [ex_b2; ex_b10].
Definition ex_top : tree := Leaf 2 [116] None ex_loc3 None.
Definition ex_forest : list tree := [ex_mod; ex_top].

Lemma ex_sib_ok_inner : sib_ok [ex_b2; ex_b10].
Proof.
  split; [|split].
  - intros x y a [<-|[<-|[]]] [<-|[<-|[]]]; simpl; intros E1 E2; congruence.
  - intros x y [<-|[<-|[]]] [<-|[<-|[]]] _; simpl; split; discriminate.
  - intros x y [<-|[<-|[]]] [<-|[<-|[]]]; simpl; exact I.
Qed.

Lemma ex_sib_ok_outer : sib_ok ex_forest.
Proof.
  split; [|split].
  - intros x y a [<-|[<-|[]]] [<-|[<-|[]]]; simpl; intros E1 E2; congruence.
  - intros x y [<-|[<-|[]]] [<-|[<-|[]]]; vm_compute; intros E; try discriminate E; split; congruence.
  - intros x y [<-|[<-|[]]] [<-|[<-|[]]]; simpl; exact I.
Qed.

Example sort_forest_hyps_satisfiable :
  sib_ok ex_forest /\ Forall (wf_tree fval fval_cmp dec_parse) ex_forest.
Proof.
  split; [exact ex_sib_ok_outer|].
  constructor; [|constructor; [|constructor]].
  - apply WF_parent; [exact ex_sib_ok_inner|].
    constructor; [|constructor; [|constructor]].
    + apply WF_leaf_args. apply oracle_dec_ok.
    + apply WF_leaf_none.
  - apply WF_leaf_none.
Qed.

Lemma sort_forest_dec_total : forall attr rev ts,
  sib_ok ts -> Forall (wf_tree fval fval_cmp dec_parse) ts ->
  exists ts', sort_forest_dec attr rev ts = Ok ts' /\
    sorted_perm fval fval_cmp dec_parse attr rev (Parent [] None ts) (Parent [] None ts') /\
    tree_perm (Parent [] None ts) (Parent [] None ts').
Proof. intros. apply sort_forest_total; assumption. Qed.
