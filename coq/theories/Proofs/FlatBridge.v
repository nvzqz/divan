(** C12: under the guards [no_name_clash] and [lookups_agree] the proved keyed semantics (the slot
    at prefix P holds the group registered with key P) is the intended flat
    semantics (every bench_group module above an entry contributes its name and
    options; a generic function's own group stands at its own key). *)
From Coq Require Import Permutation.
From DivanV Require Import Base.Res Model.Registry Model.Tree Model.Driver
  Proofs.TreeBase Proofs.DriverExec Proofs.TreeLeaves Proofs.Flat Proofs.ListFacts.
Local Open Scope N_scope.

Lemma app_inv_head_neq : forall (pre : list str) a b, a <> b -> pre ++ a <> pre ++ b.
Proof. intros pre a b H E. apply app_inv_head in E. exact (H E). Qed.

Lemma module_chain_app : forall f a b pre,
  module_chain f pre (a ++ b) = module_chain f pre a ++ module_chain f (pre ++ a) b.
Proof.
  intros f. induction a as [|x tl IH]; intros b pre; cbn [app module_chain]; [rewrite app_nil_r; reflexivity|].
  rewrite IH, <- app_assoc. reflexivity.
Qed.

Lemma generic_entry_in : forall benches groups g ge,
  In (AGeneric g ge) (all_entries benches groups) -> In g groups /\ is_module_group g = false.
Proof.
  intros benches groups g ge H. unfold all_entries in H. apply in_app_or in H. destruct H as [H|H].
  - apply in_map_iff in H. destruct H as [b [Hb _]]. discriminate.
  - apply in_flat_map in H. destruct H as [g' [Hg' H]]. unfold generic_benches in H.
    destruct (g_generic g') eqn:E; [|contradiction]. apply in_map_iff in H. destruct H as [x [Hx _]]. inversion Hx; subst.
    split; [exact Hg'|]. unfold is_module_group. rewrite E. reflexivity.
Qed.

Section Keyed.
  Variable kf : group_entry -> list str.
  Definition fmk (groups : list group_entry) : list str -> option group_entry :=
    find_module_group_by (fun g P => path_eqb (kf g) P) groups.

Lemma NoDup_key_inj : forall groups h h',
  NoDup (map kf groups) -> In h groups -> In h' groups -> kf h = kf h' -> h = h'.
Proof.
  induction groups as [|g gs IH]; intros h h' Hnd H1 H2 Hk; [contradiction|].
  cbn in Hnd. inversion Hnd as [|? ? Hn Hnd']; subst.
  destruct H1 as [H1|H1], H2 as [H2|H2]; subst.
  - reflexivity.
  - exfalso. apply Hn. rewrite Hk. apply in_map. exact H2.
  - exfalso. apply Hn. rewrite <- Hk. apply in_map. exact H1.
  - apply (IH h h' Hnd' H1 H2 Hk).
Qed.

Lemma fmk_spec : forall groups P h,
  fmk groups P = Some h -> In h groups /\ is_module_group h = true /\ kf h = P.
Proof.
  intros groups P h H. unfold fmk, find_module_group_by in H. apply find_some in H. destruct H as [H1 H2].
  apply andb_true_iff in H2. destruct H2 as [H2 H3]. apply path_eqb_spec in H3. auto.
Qed.

Lemma last_eq_find : forall groups P,
  NoDup (map kf groups) ->
  (forall h, In h groups -> kf h = P -> is_module_group h = true) ->
  last_with_key kf groups None P = fmk groups P.
Proof.
  intros groups P Hnd Hmod.
  destruct (fmk groups P) as [h|] eqn:Ef.
  - apply fmk_spec in Ef. destruct Ef as [H1 [_ H3]]. apply last_with_key_in; assumption.
  - apply last_with_key_miss. intros h Hin Hk.
    unfold fmk, find_module_group_by in Ef. pose proof (find_none _ _ Ef h Hin) as Hn. cbv beta in Hn.
    rewrite (Hmod h Hin Hk) in Hn. cbn in Hn. rewrite Hk, path_eqb_refl in Hn. discriminate.
Qed.

Definition is_prefix (p l : list str) : Prop := exists suf, l = p ++ suf.

Definition no_name_clash (benches : list bench_entry) (groups : list group_entry) : Prop :=
  NoDup (map kf groups) /\
  (forall h, In h groups -> is_module_group h = false ->
     kf h = group_key h /\      (* a generic function's entry stands at its own name, spelled as written *)
     (forall e, In e (all_entries benches groups) -> is_prefix (kf h) (entry_path e) -> exists ge, e = AGeneric h ge) /\
     (forall g', In g' groups -> is_prefix (kf h) (kf g') -> g' = h)).

Lemma slot_module : forall benches groups e P suf,
  no_name_clash benches groups -> In e (all_entries benches groups) -> entry_path e = P ++ suf ->
  (forall g ge, e = AGeneric g ge -> kf g <> P) ->
  last_with_key kf groups None P = fmk groups P.
Proof.
  intros benches groups e P suf [Hnd Hg] He HP Hown. apply last_eq_find; [exact Hnd|]. intros h Hh Hk.
  destruct (is_module_group h) eqn:Em; [reflexivity|]. exfalso.
  destruct (Hg h Hh Em) as [_ [H1 _]]. destruct (H1 e He) as [ge Hge]; [exists suf; rewrite Hk; exact HP|].
  exact (Hown h ge Hge Hk).
Qed.

Lemma keyed_chain_entry : forall benches groups e,
  no_name_clash benches groups -> In e (all_entries benches groups) ->
  keyed_chain kf groups (entry_path e) = entry_chain (fmk groups) e.
Proof.
  intros benches groups e Hc He. rewrite keyed_chain_slots. destruct e as [b|g ge]; cbn [entry_path entry_chain].
  - apply module_chain_ext. intros P suf E _. apply (slot_module benches groups _ P suf Hc He E). discriminate.
  - destruct (generic_entry_in _ _ _ _ He) as [Hgin Hgm]. destruct Hc as [Hnd Hg].
    destruct (Hg g Hgin Hgm) as [Hkey [_ Hpre]]. unfold group_key in Hkey.
    set (mc := module_components (g_meta g)) in *. set (raw := m_raw (g_meta g)) in *.
    rewrite module_chain_app. cbn [app module_chain]. f_equal; [|f_equal].
    + apply module_chain_ext. intros P suf E _.
      apply (slot_module benches groups _ P (suf ++ [raw] ++ match ge_kind ge with GConst (Some t) _ => [type_display t] | _ => [] end)
               (conj Hnd Hg) He).
      * cbn [entry_path]. fold mc raw. rewrite E, <- app_assoc. reflexivity.
      * intros g0 ge0 E0 Hk. inversion E0; subst g0. rewrite Hkey, E, <- app_assoc in Hk.
        apply (app_inv_head_neq P (suf ++ [raw]) []); [destruct suf; discriminate|rewrite app_nil_r; exact Hk].
    + f_equal. apply last_with_key_in; [exact Hnd|exact Hgin|exact Hkey].
    + (* the type component carries no group *)
      destruct (ge_kind ge) as [t|[t|] c0]; cbn [module_chain]; try reflexivity.
      f_equal. f_equal. apply last_with_key_miss. intros h Hh Hkh.
      assert (Hp : is_prefix (kf g) (kf h)) by (exists [type_display t]; rewrite Hkh, Hkey, <- app_assoc; reflexivity).
      rewrite (Hpre h Hh Hp), Hkey in Hkh.
      apply (app_inv_head_neq (mc ++ [raw]) [] [type_display t]); [discriminate|rewrite app_nil_r; exact Hkh].
Qed.

End Keyed.

(** The lookups of the flat semantics proper (group keys compared with the last
    component modulo "r#") and of the attachment keys agree on the module paths
    of the registry. *)
Definition lookups_agree (benches : list bench_entry) (groups : list group_entry) : Prop :=
  forall e P suf, In e (all_entries benches groups) -> P <> [] ->
    module_components (entry_meta e) = P ++ suf ->
    find_module_group groups P = fmk (attach_key benches groups) groups P.

Lemma entry_chain_agree : forall benches groups e,
  lookups_agree benches groups -> In e (all_entries benches groups) ->
  entry_chain (find_module_group groups) e = entry_chain (fmk (attach_key benches groups) groups) e.
Proof.
  intros benches groups e H He.
  assert (Hm : module_chain (find_module_group groups) [] (module_components (entry_meta e))
               = module_chain (fmk (attach_key benches groups) groups) [] (module_components (entry_meta e))).
  { apply module_chain_ext. intros P suf E HP. apply (H e P suf He HP E). }
  destruct e as [b|g ge]; cbn [entry_chain entry_meta] in *; rewrite Hm; reflexivity.
Qed.

Definition flat_leaf (fm : list str -> option group_entry) (e : any_entry) : cleaf :=
  (entry_chain fm e, e, leaf_args e).

Lemma leaves_flat : forall benches groups,
  no_name_clash (attach_key benches groups) benches groups -> lookups_agree benches groups ->
  Permutation (flat_map leaves_rel (build_tree benches groups))
              (map (flat_leaf (find_module_group groups)) (all_entries benches groups)).
Proof.
  intros benches groups Hg Hl. rewrite build_tree_leaves_rel.
  eapply Permutation_trans; [apply Permutation_map; apply tree_complete|]. rewrite map_map.
  rewrite (map_ext_in _ (flat_leaf (find_module_group groups))); [apply Permutation_refl|].
  intros e He. unfold rekey, rleaf_of, flat_leaf. cbn [fst snd].
  rewrite (keyed_chain_entry _ benches groups e Hg He), (entry_chain_agree benches groups e Hl He). reflexivity.
Qed.

Lemma case_of_flat : forall c fm e,
  filter (fun x => c_filter c (xpath x)) (case_of c [] None (flat_leaf fm e)) = flat_case c fm e.
Proof.
  intros c fm e. unfold case_of, flat_case, flat_leaf. cbn [fst snd].
  fold (chain_path (entry_chain fm e)). fold (chain_options (entry_chain fm e)).
  destruct (leaf_ignored c _); [reflexivity|].
  unfold leaf_args. destruct (entry_runner e) as [|o vals]; [|reflexivity].
  cbn [filter xpath fst snd]. destruct (c_filter c _); reflexivity.
Qed.

Lemma exec_flat : forall c benches groups,
  no_name_clash (attach_key benches groups) benches groups -> lookups_agree benches groups ->
  Permutation (exec_forest c [] None (retain (c_filter c) (build_tree benches groups)))
              (flat_exec c benches groups).
Proof.
  intros c benches groups Hg Hl. rewrite exec_retain by apply wf_build_tree. rewrite exec_forest_by_chains.
  eapply Permutation_trans; [apply Permutation_filter, Permutation_flat_map, (leaves_flat _ _ Hg Hl)|].
  rewrite flat_map_map, filter_flat_map. unfold flat_exec. rewrite (flat_map_ext _ _ (case_of_flat c _)).
  apply Permutation_refl.
Qed.

(** The guard is satisfiable by a registry with a module group; a generic function of the module's name breaks it. *)
Example no_name_clash_example :
  no_name_clash (attach_key [w_bench_a] [w_mod_group]) [w_bench_a] [w_mod_group] /\
  lookups_agree [w_bench_a] [w_mod_group] /\
  ~ no_name_clash (attach_key [w_bench_a] [w_mod_group; w_fn_group]) [w_bench_a] [w_mod_group; w_fn_group].
Proof.
  split; [|split].
  - split; [cbn; constructor; [intros []|constructor]|]. intros h [Hh|[]] Hm. subst h. discriminate.
  - intros e P suf [He|[]] HP Hsuf. subst e. cbn [entry_meta] in Hsuf.
    change (module_components (b_meta w_bench_a)) with [w_c; w_f] in Hsuf.
    destruct P as [|p1 [|p2 [|p3 P]]]; [congruence| | |]; cbn in Hsuf; inversion Hsuf; subst; vm_compute; reflexivity.
  - intros [Hnd _]. vm_compute in Hnd. inversion Hnd as [|? ? Hn _]. apply Hn. left. reflexivity.
Qed.
