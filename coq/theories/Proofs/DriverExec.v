(** The walks of Model/Driver.v against the reference [exec_node]:
    what a run executes, what the terse listing prints, what [retain] keeps. *)
From DivanV Require Import Base.Res Model.Registry Model.Tree Model.Driver Proofs.TreeBase Proofs.ListFacts.
Local Open Scope N_scope.

Definition xcase := (N * str * option (N * value))%type.
Definition xpath (x : xcase) : str := snd (fst x).

Lemma tseq_no_panic : forall a b, snd a = None -> tseq a b = (fst a ++ fst b, snd b).
Proof. intros [la pa] b H. cbn in H. subst pa. reflexivity. Qed.

Definition okx (tr : trace) (xs : list xcase) : Prop := snd tr = None /\ executed (fst tr) = xs.

Lemma executed_app : forall l1 l2, executed (l1 ++ l2) = executed l1 ++ executed l2.
Proof. intros. unfold executed. apply flat_map_app. Qed.

Lemma okx_tret : forall l, okx (tret l) (executed l).
Proof. intro l. split; reflexivity. Qed.

Lemma okx_tseq : forall a b xs ys, okx a xs -> okx b ys -> okx (tseq a b) (xs ++ ys).
Proof.
  intros a b xs ys [Ha1 Ha2] [Hb1 Hb2]. rewrite (tseq_no_panic a b Ha1). split; [exact Hb1|].
  cbn [fst]. rewrite executed_app, Ha2, Hb2. reflexivity.
Qed.

Lemma okx_bracket : forall l1 tr l2 xs,
  executed l1 = [] -> executed l2 = [] -> okx tr xs -> okx (tseq (tret l1) (tseq tr (tret l2))) xs.
Proof.
  intros l1 tr l2 xs H1 H2 H. rewrite <- (app_nil_r xs).
  apply (okx_tseq _ _ [] (xs ++ [])); [split; [reflexivity|exact H1]|].
  apply okx_tseq; [exact H|split; [reflexivity|exact H2]].
Qed.

Lemma run_node_parent : forall c a pp po il r g ch,
  run_node c a pp po il (Parent r g ch) =
  let name := display_name (Parent r g ch) in
  let path := join_path pp name in
  let options := merge_opts po (node_opts (Parent r g ch)) in
  tseq (tret [AStartParent name path il])
       (tseq (run_forest c a path options ch) (tret [AFinishParent])).
Proof.
  intros. cbn [run_node]. cbv zeta. f_equal. f_equal.
  induction ch as [|x tl IH]; [reflexivity|]. cbn [run_forest]. f_equal. exact IH.
Qed.

(** The ignore test in the form [run_bench_entry] has it. *)
Lemma ignore_same : forall c options,
  should_ignore c (default_false (o_ignore (match options with
                                            | None => c_opts c
                                            | Some eo => opts_overwrite (c_opts c) eo
                                            end)))
  = leaf_ignored c options.
Proof.
  intros c [eo|]; unfold leaf_ignored; cbn.
  - reflexivity.
  - destruct (o_ignore (c_opts c)); reflexivity.
Qed.

Lemma executed_run_threads_more : forall a id path arg tcs, executed (run_threads a id path arg false tcs) = [].
Proof.
  intros a id path arg. induction tcs as [|tc tl IH]; [reflexivity|].
  cbn [run_threads]. rewrite executed_app, IH. destruct (is_bench a); reflexivity.
Qed.

(** A case is executed once, whatever the number of thread counts it is run over. *)
Lemma executed_run_bench : forall tcs a id name path il arg,
  executed (run_bench tcs a id name path il arg) = [(id, path, arg)].
Proof.
  intros tcs a id name path il arg. unfold run_bench.
  destruct tcs as [|t1 [|t2 tl]]; try (destruct (is_bench a); reflexivity).
  rewrite !executed_app. cbn [run_threads]. rewrite !executed_app, executed_run_threads_more.
  destruct (is_bench a); reflexivity.
Qed.

Lemma arg_case_inv : forall e vals path i x, In x (arg_case e vals path i) ->
  exists v, nth_error vals (N.to_nat i) = Some v /\ x = (entry_id e, arg_path path e i, Some (i, v)).
Proof.
  intros e vals path i x Hx. unfold arg_case in Hx.
  destruct (nth_error vals (N.to_nat i)) as [v|]; [|contradiction].
  destruct Hx as [Hx|[]]. exists v. split; [reflexivity|symmetry; exact Hx].
Qed.

(** The indices of a well-formed leaf are in range: the indexing operation of [run_args] does not panic. *)
Lemma nth_error_index : forall (vals : list value) i,
  (i <? N.of_nat (length vals)) = true -> exists v, nth_error vals (N.to_nat i) = Some v.
Proof.
  intros vals i H. apply lt_nth_error. apply N.ltb_lt in H. lia.
Qed.

Lemma run_args_ok : forall tcs a e vals path args,
  forallb (fun i => i <? N.of_nat (length vals)) args = true ->
  okx (run_args tcs a e vals path args) (flat_map (arg_case e vals path) args).
Proof.
  intros tcs a e vals path. induction args as [|i tl IH]; intro H; cbn [run_args flat_map].
  - apply okx_tret.
  - cbn in H. apply andb_true_iff in H. destruct H as [Hi Htl].
    destruct (nth_error_index vals i Hi) as [v Hv]. unfold arg_case at 1. rewrite Hv.
    apply okx_tseq; [|apply IH, Htl]. split; [reflexivity|apply executed_run_bench].
Qed.

Lemma run_bench_entry_ok : forall c a e args options path il,
  is_list a = false -> wf_node (Leaf e args) = true ->
  okx (run_bench_entry c a e args options path il)
      (if leaf_ignored c options then []
       else match entry_runner e with
            | RPlain => [(entry_id e, path, None)]
            | RArgs _ vals => flat_map (arg_case e vals path) (match args with Some l => l | None => [] end)
            end).
Proof.
  intros c a e args options path il Ha Hwf. unfold run_bench_entry. rewrite ignore_same.
  destruct (leaf_ignored c options); [split; reflexivity|]. rewrite Ha.
  cbn in Hwf. destruct (entry_runner e) as [|o vals] eqn:E.
  - split; [reflexivity|apply executed_run_bench].
  - destruct args as [l|]; [|discriminate].
    apply okx_bracket; [reflexivity|reflexivity|]. apply run_args_ok, Hwf.
Qed.

Lemma run_forest_ok : forall c a, is_list a = false ->
  forall l pp po, wf_forest l = true -> okx (run_forest c a pp po l) (exec_forest c pp po l).
Proof.
  intros c a Ha. induction l as [|e args tl IHtl|r g ch tl IHch IHtl] using forest_ind; intros pp po Hwf.
  - apply okx_tret.
  - apply wf_forest_cons in Hwf. destruct Hwf as [Ht Htl]. cbn [run_forest exec_forest flat_map].
    apply okx_tseq; [|apply IHtl, Htl]. apply run_bench_entry_ok; assumption.
  - apply wf_forest_cons in Hwf. destruct Hwf as [Ht Htl]. cbn [run_forest exec_forest flat_map].
    apply okx_tseq; [|apply IHtl, Htl]. rewrite run_node_parent. cbn [exec_node].
    apply okx_bracket; [reflexivity|reflexivity|]. apply IHch, Ht.
Qed.

Definition line_of (x : xcase) : str := xpath x ++ s_benchmark.

Lemma lines_app : forall l1 l2, lines (l1 ++ l2) = lines l1 ++ lines l2.
Proof. intros. unfold lines. apply flat_map_app. Qed.

Lemma lines_println : forall A (f : A -> str) l, lines (map (fun i => APrintln (f i)) l) = map f l.
Proof. intros A f. induction l as [|x tl IH]; cbn; [reflexivity|]. f_equal. exact IH. Qed.

Lemma list_forest_lines : forall c pp po (X : tree -> list xcase) l,
  (forall t, In t l -> lines (list_node c pp po t) = map line_of (X t)) ->
  lines (list_forest c pp po l) = map line_of (flat_map X l).
Proof.
  intros c pp po X. induction l as [|x tl IH]; intro H; [reflexivity|].
  unfold list_forest. cbn [flat_map]. rewrite lines_app, map_app, (H x (or_introl eq_refl)). f_equal.
  apply IH. intros t Ht. apply H. right. exact Ht.
Qed.

Lemma list_node_ok : forall c t pp po, wf_node t = true ->
  lines (list_node c pp po t) = map line_of (exec_node c pp po t).
Proof.
  intros c. induction t as [e args|r g ch IH] using tree_ind_in; intros pp po Hwf.
  - cbn [list_node exec_node]. fold (leaf_ignored c (merge_opts po (node_opts (Leaf e args)))).
    destruct (leaf_ignored c _); [reflexivity|].
    cbn in Hwf. destruct (entry_runner e) as [|o vals] eqn:E.
    + destruct args; [discriminate|]. reflexivity.
    + destruct args as [l|]; [|discriminate].
      rewrite lines_println. induction l as [|i tl IHl]; [reflexivity|].
      cbn in Hwf. apply andb_true_iff in Hwf. destruct Hwf as [Hi Htl].
      destruct (nth_error_index vals i Hi) as [v Hv].
      cbn [map flat_map]. unfold arg_case at 1. rewrite Hv. cbn. f_equal. apply IHl, Htl.
  - apply (list_forest_lines c _ _ (exec_node c _ _)). intros t Ht.
    apply (IH t Ht), (wf_forest_in ch), Ht. exact Hwf.
Qed.

Lemma list_forest_ok : forall c l pp po, wf_forest l = true ->
  lines (list_forest c pp po l) = map line_of (exec_forest c pp po l).
Proof.
  intros c l pp po H. apply list_forest_lines. intros t Ht. apply list_node_ok, (wf_forest_in l), Ht. exact H.
Qed.

Definition quiet (l : list action) : Prop := forallb (fun x => negb (runs_something x)) l = true.

Definition okq (tr : trace) : Prop := snd tr = None /\ quiet (fst tr).

Lemma okq_tseq : forall a b, okq a -> okq b -> okq (tseq a b).
Proof.
  intros a b [Ha1 Ha2] [Hb1 Hb2]. rewrite (tseq_no_panic a b Ha1). split; [exact Hb1|].
  apply forallb_app_intro; assumption.
Qed.

Lemma list_node_quiet : forall c t pp po, quiet (list_node c pp po t).
Proof.
  intros c. induction t as [e args|r g ch IH] using tree_ind_in; intros pp po.
  - cbn [list_node]. destruct (should_ignore c _); [reflexivity|].
    destruct args as [l|]; [|reflexivity].
    apply forallb_forall. intros x Hx. apply in_map_iff in Hx. destruct Hx as [i [Hi _]]. subst. reflexivity.
  - apply forallb_flat_map. intros x Hx. apply IH, Hx.
Qed.

Lemma run_forest_list_quiet : forall c l pp po, okq (run_forest c List pp po l).
Proof.
  intros c. induction l as [|e args tl IHtl|r g ch tl IHch IHtl] using forest_ind; intros pp po.
  - split; reflexivity.
  - apply okq_tseq; [|apply IHtl]. cbn [run_node]. unfold run_bench_entry.
    destruct (should_ignore c _); split; reflexivity.
  - apply okq_tseq; [|apply IHtl]. rewrite run_node_parent. apply okq_tseq; [split; reflexivity|].
    apply okq_tseq; [apply IHch|split; reflexivity].
Qed.

Lemma list_runs_nothing : forall c srt benches groups a,
  a = List \/ a = ListTerse ->
  snd (run_action c srt a benches groups) = None /\
  forallb (fun x => negb (runs_something x)) (fst (run_action c srt a benches groups)) = true.
Proof.
  intros c srt benches groups a Ha. unfold run_action.
  destruct (is_nil _); [split; reflexivity|].
  destruct Ha as [Ha|Ha]; subst a.
  - apply run_forest_list_quiet.
  - split; [reflexivity|]. apply forallb_flat_map. intros x _. apply list_node_quiet.
Qed.

(** [retain_node] drops a node only when nothing below it is left to execute. *)
Lemma exec_pruned : forall c pp po (b : bool) t,
  (b = true -> exec_node c pp po t = []) ->
  exec_forest c pp po (if b then [] else [t]) = exec_node c pp po t.
Proof. intros c pp po [|] t H; cbn; [symmetry; apply H; reflexivity|apply app_nil_r]. Qed.

Lemma exec_retain_children : forall c f pp po l,
  (forall t, In t l ->
     exec_forest c pp po (retain_node f pp t) = filter (fun x => f (xpath x)) (exec_node c pp po t)) ->
  exec_forest c pp po (flat_map (retain_node f pp) l) = filter (fun x => f (xpath x)) (exec_forest c pp po l).
Proof.
  intros c f pp po l H. unfold exec_forest. rewrite flat_map_flat_map, filter_flat_map.
  apply flat_map_ext_in. exact H.
Qed.

Lemma exec_retain_node : forall c f t pp po, wf_node t = true ->
  exec_forest c pp po (retain_node f pp t) = filter (fun x => f (xpath x)) (exec_node c pp po t).
Proof.
  intros c f. induction t as [e args|r g ch IH] using tree_ind_in; intros pp po Hwf.
  - cbn [retain_node display_name]. cbn in Hwf. destruct args as [l|].
    + destruct (entry_runner e) as [|o vals] eqn:E; [discriminate|]. rewrite exec_pruned.
      * cbn [exec_node display_name]. destruct (leaf_ignored c _); [reflexivity|]. rewrite E.
        apply flat_map_filter. intros i x Hx.
        destruct (arg_case_inv _ _ _ _ _ Hx) as [v [_ Hv]]. subst x. reflexivity.
      * intro En. apply is_nil_spec in En. rewrite En. cbn [exec_node].
        destruct (leaf_ignored c _); [reflexivity|]. rewrite E. reflexivity.
    + destruct (entry_runner e) eqn:E; [|discriminate].
      transitivity (if f (join_path pp (entry_display e)) then exec_node c pp po (Leaf e None) else []).
      { destruct (f _); [apply app_nil_r|reflexivity]. }
      cbn [exec_node display_name]. destruct (leaf_ignored c _); [destruct (f _); reflexivity|].
      rewrite E. reflexivity.
  - cbn [retain_node]. rewrite exec_pruned.
    + apply exec_retain_children. intros t Ht.
      apply (IH t Ht), (wf_forest_in ch), Ht. exact Hwf.
    + intro En. apply is_nil_spec in En. cbn [exec_node]. rewrite En. reflexivity.
Qed.

Lemma exec_retain : forall c f l po, wf_forest l = true ->
  exec_forest c [] po (retain f l) = filter (fun x => f (xpath x)) (exec_forest c [] po l).
Proof.
  intros c f l po H. apply exec_retain_children. intros t Ht. apply exec_retain_node, (wf_forest_in l), Ht. exact H.
Qed.
