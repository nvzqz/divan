(** Proofs about [Model/ArgCmp.v]: the argument-name comparator is a total
    preorder on every list of names on which the float oracle is monotone on
    the integer names; with the position as tie-breaker it is a strict total order;
    hence the sort never panics and its result is the unique sorted permutation. *)

From Coq Require Import Permutation QArith.
From DivanV Require Import Base.Res Generated.Consts Model.Natural Model.SortBy Model.ArgCmp
  Proofs.SortCmp Proofs.SortUniq Proofs.Natural.
Local Open Scope N_scope.

Lemma tpo_cascade {A} (P : A -> Prop) (cs : list (A -> A -> comparison)) :
  Forall (tpo_on P) cs -> tpo_on P (cascade cs).
Proof.
  induction 1 as [|c r Tc _ IH]; [apply tpo_const_eq|].
  exact (tpo_thenc P c (cascade r) Tc IH).
Qed.

Lemma cascade_eq_in {A} (cs : list (A -> A -> comparison)) c x y :
  In c cs -> cascade cs x y = Eq -> c x y = Eq.
Proof.
  induction cs as [|d r IH]; intros Hin H; [destruct Hin|].
  simpl in H. destruct Hin as [->|Hin].
  - destruct (c x y); congruence.
  - apply IH; [exact Hin|]. destruct (d x y); congruence.
Qed.

Lemma int_val_u128 : forall s x, parse_u128 s = Some x -> int_val s = Some (Z.of_N x).
Proof. intros s x H. unfold int_val. rewrite H. reflexivity. Qed.

Lemma int_val_not_u128 : forall s, parse_u128 s = None -> int_val s = parse_i128 s.
Proof. intros s H. unfold int_val. rewrite H. reflexivity. Qed.

Lemma is_int_int_val : forall s, is_int s = match int_val s with Some _ => true | None => false end.
Proof.
  intros s. unfold is_int, int_val. destruct (parse_u128 s); [reflexivity|].
  destruct (parse_i128 s); reflexivity.
Qed.

Lemma neg_i128_spec : forall s, neg_i128 s = true ->
  exists z, parse_i128 s = Some z /\ (z < 0)%Z.
Proof.
  intros s H. unfold neg_i128 in H. destruct (parse_i128 s) as [z|]; [|discriminate].
  exists z. split; [reflexivity|]. apply Z.ltb_lt. exact H.
Qed.

(** An integer name is an optional sign and a non-empty run of digits, its
    value is the signed value of the run, and only a name with a minus sign is
    outside [u128] (the positive range of [i128] being the smaller one). *)
Lemma int_val_shape : forall s z, int_val s = Some z ->
  exists c r, s = c :: r /\
    let d := if (c =? 43) || (c =? 45) then r else s in
    int_digits_ok d = true /\
    z = (if c =? 45 then (- Z.of_N (digits_val d))%Z else Z.of_N (digits_val d)) /\
    (parse_u128 s = None -> c = 45).
Proof.
  intros [|c r] z H; [discriminate|]. exists c, r. split; [reflexivity|]. revert H.
  unfold int_val, parse_u128, parse_i128. cbv zeta.
  destruct (c =? 45) eqn:E45.
  - apply N.eqb_eq in E45. subst c.
    change (int_digits_ok (if 45 =? 43 then r else 45 :: r)) with false. cbv iota.
    rewrite !Bool.orb_true_r.
    destruct (int_digits_ok r); [|discriminate].
    destruct (digits_val r <=? 2 ^ 127); [|discriminate].
    intros H. injection H as <-. split; [reflexivity|split; reflexivity].
  - rewrite !Bool.orb_false_r.
    set (d := if c =? 43 then r else c :: r). generalize (digits_val d). intros v.
    destruct (int_digits_ok d); [|discriminate].
    intros H. split; [reflexivity|]. revert H.
    destruct (v <? 2 ^ 128) eqn:L2; [intros [= <-]; split; [reflexivity|discriminate]|].
    destruct (v <? 2 ^ 127) eqn:L; [|discriminate].
    apply N.ltb_lt in L. apply N.ltb_ge in L2. exfalso.
    (* by transitivity, the two powers kept folded *)
    assert (B : 2 ^ 127 < 2 ^ 128) by (apply N.pow_lt_mono_r; reflexivity).
    apply (N.lt_irrefl (2 ^ 128)), (N.le_lt_trans _ _ _ L2), (N.lt_trans _ _ _ L), B.
Qed.

(** An [i128] name that is not a [u128] name and not negative is a spelling of
    zero ("-0", "-00", ...). *)
Lemma minus_zero : forall s z,
  parse_u128 s = None -> neg_i128 s = false -> int_val s = Some z -> z = 0%Z.
Proof.
  intros s z U Nn I0. unfold neg_i128 in Nn.
  rewrite <- (int_val_not_u128 s U), I0 in Nn. apply Z.ltb_ge in Nn.
  apply int_val_shape in I0. destruct I0 as (c & r & -> & _ & Hz & Hc).
  rewrite (Hc U) in Hz. cbn [N.eqb Pos.eqb] in Hz. lia.
Qed.

Section ArgCmpProofs.
Variable V : Type.
Variable vcmp : V -> V -> comparison.
Variable fparse : bytes -> option V.

Notation name_cmp := (name_cmp V vcmp fparse).
Notation float_cmp := (float_cmp V vcmp fparse).
Notation arg_cmp := (arg_cmp V vcmp fparse).
Notation arg_cmp_attr := (arg_cmp_attr V vcmp fparse).
Notation spec_name_cmp := (spec_name_cmp V vcmp fparse).

(** What the proofs need of the float oracle on a set [P] of names:
    [vcmp] is a total preorder; a name that parses as an integer parses as a
    float; the oracle is monotone on integer names (a smaller integer never
    gets a greater float: rounding may merge neighbours but never swaps them);
    an integer that is not zero is not rounded to the float of a zero.
    A correctly rounding [str::parse::<f64>] satisfies all of this for every
    name; no exactness is required. *)
Definition oracle_ok_on (P : bytes -> Prop) : Prop :=
  tpo_on all vcmp /\
  (forall s, P s -> int_val s <> None -> fparse s <> None) /\
  (forall a b x y va vb, P a -> P b ->
     int_val a = Some x -> int_val b = Some y ->
     fparse a = Some va -> fparse b = Some vb -> (x <= y)%Z -> vcmp va vb <> Gt) /\
  (forall a b x va vb, P a -> P b ->
     int_val a = Some x -> int_val b = Some 0%Z ->
     fparse a = Some va -> fparse b = Some vb -> vcmp va vb = Eq -> x = 0%Z).

(** Key of a name.  A number: its float value, then integers before other
    spellings, then the exact integer value.  Other names follow in natural order. *)
Definition num_key : Type := V * (N * Z).

Definition name_key (s : bytes) : num_key + bytes :=
  match fparse s with
  | Some v => inl (v, match int_val s with Some z => (0, z) | None => (1, 0%Z) end)
  | None => inr s
  end.

Definition key_cmp : num_key + bytes -> num_key + bytes -> comparison :=
  sumcmp (paircmp vcmp (paircmp N.compare Z.compare)) natural_cmp.

Lemma spec_name_cmp_key : forall a b,
  spec_name_cmp a b = key_cmp (name_key a) (name_key b).
Proof.
  intros a b. unfold ArgCmp.spec_name_cmp, key_cmp, name_key.
  destruct (fparse a) as [x|], (fparse b) as [y|]; try reflexivity.
  - unfold sumcmp, paircmp. simpl.
    destruct (vcmp x y); try reflexivity.
    destruct (int_val a), (int_val b); reflexivity.
  - symmetry. apply natural_cmp_key.
Qed.

(** "Compare as floats" is the specified order of two names unless both are
    integers that the oracle merges and their exact values differ. *)
Lemma float_cmp_spec : forall a b,
  (forall va vb p q, fparse a = Some va -> fparse b = Some vb -> vcmp va vb = Eq ->
     int_val a = Some p -> int_val b = Some q -> p = q) ->
  float_cmp a b = spec_name_cmp a b.
Proof.
  intros a b H. unfold ArgCmp.float_cmp, ArgCmp.spec_name_cmp.
  destruct (fparse a) as [va|], (fparse b) as [vb|]; try reflexivity; [|apply natural_cmp_key].
  destruct (vcmp va vb) eqn:E; try reflexivity.
  rewrite !is_int_int_val. destruct (int_val a) as [p|], (int_val b) as [q|]; try reflexivity.
  rewrite (H va vb p q eq_refl eq_refl E eq_refl eq_refl), Z.compare_refl. reflexivity.
Qed.

Variable P : bytes -> Prop.
Hypothesis OK : oracle_ok_on P.

(** Two integer names are specified to compare by their exact values: the
    oracle, being monotone, never contradicts them. *)
Lemma spec_ints : forall a b x y, P a -> P b -> int_val a = Some x -> int_val b = Some y ->
  spec_name_cmp a b = (x ?= y)%Z.
Proof.
  intros a b x y Pa Pb Ia Ib. destruct OK as (Tv & Hnum & Hmono & _).
  unfold ArgCmp.spec_name_cmp. rewrite Ia, Ib.
  destruct (fparse a) as [va|] eqn:Fa; [|exfalso; apply (Hnum a Pa); congruence].
  destruct (fparse b) as [vb|] eqn:Fb; [|exfalso; apply (Hnum b Pb); congruence].
  destruct (vcmp va vb) eqn:E; [reflexivity| |]; symmetry.
  - apply Z.compare_lt_iff. apply Z.lt_nge. intros H.
    apply (Hmono b a y x vb va Pb Pa Ib Ia Fb Fa H).
    rewrite (tpo_anti all vcmp Tv va vb I I), E. reflexivity.
  - apply Z.compare_gt_iff. apply Z.lt_nge. intros H.
    apply (Hmono a b x y va vb Pa Pb Ia Ib Fa Fb H). exact E.
Qed.

Lemma tie_zero : forall a b va vb p q, P a -> P b ->
  fparse a = Some va -> fparse b = Some vb -> vcmp va vb = Eq ->
  int_val a = Some p -> int_val b = Some q -> p = 0%Z \/ q = 0%Z -> p = q.
Proof.
  intros a b va vb p q Pa Pb Fa Fb E Ia Ib. destruct OK as (Tv & _ & _ & Hzero).
  intros [-> | ->]; [symmetry|].
  - apply (Hzero b a q vb va); auto. apply (tpo_eq_sym all vcmp Tv); auto; exact I.
  - apply (Hzero a b p va vb); auto.
Qed.

(** The whole [Name] arm answers what the specification says.  The integer
    fast paths agree with it by [spec_ints]; "compare as floats" is reached
    with two integers only when one of them is "-0". *)
Lemma name_cmp_spec : forall a b, P a -> P b -> name_cmp a b = spec_name_cmp a b.
Proof.
  intros a b Pa Pb. unfold ArgCmp.name_cmp.
  destruct (parse_u128 a) as [x|] eqn:Ua; destruct (parse_u128 b) as [y|] eqn:Ub.
  - rewrite (spec_ints a b _ _ Pa Pb (int_val_u128 a x Ua) (int_val_u128 b y Ub)).
    symmetry. apply N2Z.inj_compare.
  - destruct (neg_i128 b) eqn:Nb.
    + apply neg_i128_spec in Nb. destruct Nb as (z & Ib & Hz).
      rewrite <- (int_val_not_u128 b Ub) in Ib.
      rewrite (spec_ints a b _ z Pa Pb (int_val_u128 a x Ua) Ib).
      symmetry. apply Z.compare_gt_iff, (Z.lt_le_trans _ 0); [exact Hz|apply N2Z.is_nonneg].
    + apply float_cmp_spec. intros va vb p q Fa Fb E Ia Ib.
      apply (tie_zero a b va vb); auto. right. exact (minus_zero b q Ub Nb Ib).
  - destruct (neg_i128 a) eqn:Na.
    + apply neg_i128_spec in Na. destruct Na as (z & Ia & Hz).
      rewrite <- (int_val_not_u128 a Ua) in Ia.
      rewrite (spec_ints a b z _ Pa Pb Ia (int_val_u128 b y Ub)).
      symmetry. apply Z.compare_lt_iff, (Z.lt_le_trans _ 0); [exact Hz|apply N2Z.is_nonneg].
    + apply float_cmp_spec. intros va vb p q Fa Fb E Ia Ib.
      apply (tie_zero a b va vb); auto. left. exact (minus_zero a p Ua Na Ia).
  - rewrite <- (int_val_not_u128 a Ua), <- (int_val_not_u128 b Ub).
    destruct (int_val a) as [p|] eqn:Ia; destruct (int_val b) as [q|] eqn:Ib;
      [symmetry; apply spec_ints; assumption| | |];
      apply float_cmp_spec; intros; congruence.
Qed.

Lemma tpo_key_cmp : tpo_on all key_cmp.
Proof.
  apply tpo_sum; [|exact tpo_natural_cmp].
  exact (tpo_pair _ _ (proj1 OK) (tpo_pair _ _ tpo_N tpo_Z)).
Qed.

Lemma tpo_name_cmp : tpo_on P name_cmp.
Proof.
  apply (tpo_via P all name_key name_cmp key_cmp); [intros; exact I| |exact tpo_key_cmp].
  intros a b Pa Pb. rewrite name_cmp_spec by assumption. apply spec_name_cmp_key.
Qed.

Definition PD (x : N * bytes) : Prop := P (snd x).

Lemma tpo_arg_cmp_attr : forall attr, tpo_on PD (arg_cmp_attr attr).
Proof.
  intros [| |]; unfold ArgCmp.arg_cmp_attr.
  - apply tpo_const_eq.
  - apply (tpo_pull PD P snd name_cmp); [intros x Hx; exact Hx|exact tpo_name_cmp].
  - exact (tpo_key PD fst N.compare tpo_N).
Qed.

Lemma tpo_arg_cmp : forall attr, tpo_on PD (arg_cmp attr).
Proof.
  intros attr. apply tpo_cascade, Forall_map, Forall_forall.
  intros a _. apply tpo_arg_cmp_attr.
Qed.

(** Every cascade compares the positions at some point, so only an argument
    itself is [Equal] to it. *)
Lemma arg_cmp_eq_pos : forall attr x y, arg_cmp attr x y = Eq -> fst x = fst y.
Proof.
  intros attr x y H. apply N.compare_eq.
  apply (cascade_eq_in _ (arg_cmp_attr SLocation) x y) in H; [exact H|].
  apply in_map. destruct attr; simpl; auto.
Qed.

End ArgCmpProofs.

Lemma index_from_length {A} : forall (l : list A) i, length (index_from i l) = length l.
Proof. induction l as [|a l IH]; intros i; simpl; [reflexivity|]. rewrite IH. reflexivity. Qed.

Lemma index_from_map_snd {A} : forall (l : list A) i, map snd (index_from i l) = l.
Proof. induction l as [|x r IH]; intros i; simpl; [reflexivity|]. rewrite IH. reflexivity. Qed.

Lemma index_from_fst {A} : forall (l : list A) i x, In x (index_from i l) ->
  i <= fst x < i + N.of_nat (length l).
Proof.
  induction l as [|a l IH]; intros i x H; simpl in *; [destruct H|].
  destruct H as [<-|H]; simpl; [lia|]. apply IH in H. lia.
Qed.

Lemma index_from_fst_in {A} : forall (l : list A) k i,
  k <= i < k + N.of_nat (length l) -> In i (map fst (index_from k l)).
Proof.
  induction l as [|a l IH]; intros k i H; simpl in *; [lia|].
  destruct (N.eq_dec i k) as [->|Hne]; [left; reflexivity|].
  right. apply IH. lia.
Qed.

Lemma index_from_inj {A} : forall (l : list A) i x y,
  In x (index_from i l) -> In y (index_from i l) -> fst x = fst y -> x = y.
Proof.
  induction l as [|a l IH]; intros i x y Hx Hy E; simpl in *; [destruct Hx|].
  destruct Hx as [<-|Hx]; destruct Hy as [<-|Hy]; simpl in *.
  - reflexivity.
  - apply index_from_fst in Hy. lia.
  - apply index_from_fst in Hx. lia.
  - eapply IH; eauto.
Qed.

Lemma index_from_snd {A} : forall (l : list A) i x, In x (index_from i l) -> In (snd x) l.
Proof.
  induction l as [|a l IH]; intros i x H; simpl in *; [destruct H|].
  destruct H as [<-|H]; [left; reflexivity|right; eapply IH; eauto].
Qed.

Lemma index_from_nodup {A} : forall (l : list A) i, NoDup (index_from i l).
Proof.
  induction l as [|a l IH]; intros i; simpl; [constructor|].
  constructor; [|apply IH]. intros H. apply index_from_fst in H. simpl in H. lia.
Qed.

Lemma nth_opt_index_from {A} : forall (l : list A) i x, In x (index_from i l) ->
  nth_opt l (fst x - i) = Some (snd x).
Proof.
  induction l as [|a l IH]; intros i x H; simpl in *; [destruct H|].
  destruct H as [<-|H]; simpl.
  - rewrite N.sub_diag. reflexivity.
  - pose proof (index_from_fst _ _ _ H) as B. apply IH in H.
    destruct (fst x - i =? 0) eqn:E; [apply N.eqb_eq in E; lia|].
    rewrite <- N.sub_add_distr. exact H.
Qed.

Section SortArgs.
Variable V : Type.
Variable vcmp : V -> V -> comparison.
Variable fparse : bytes -> option V.
Variable names : list bytes.

Definition in_names (s : bytes) : Prop := In s names.
Definition D (x : N * bytes) : Prop := In x (indexed names).

Hypothesis OK : oracle_ok_on V vcmp fparse in_names.

Notation arg_cmp := (arg_cmp V vcmp fparse).

Lemma D_in_names : forall x, D x -> in_names (snd x).
Proof. intros x H. exact (index_from_snd names 0 x H). Qed.

Lemma tpo_arg_cmp_D : forall attr, tpo_on D (arg_cmp attr).
Proof.
  intros attr. apply (tpo_weaken D (PD in_names)); [exact D_in_names|].
  apply tpo_arg_cmp. exact OK.
Qed.

Lemma arg_cmp_strict : forall attr x y, D x -> D y -> (arg_cmp attr x y = Eq <-> x = y).
Proof.
  intros attr x y Dx Dy. split.
  - intros H. apply arg_cmp_eq_pos in H. eapply index_from_inj; eauto.
  - intros <-. apply (tpo_refl D _ (tpo_arg_cmp_D attr)). exact Dx.
Qed.

Lemma tpo_rev_arg_cmp_D : forall attr b, tpo_on D (revc b (arg_cmp attr)).
Proof. intros. apply tpo_rev. apply tpo_arg_cmp_D. Qed.

Lemma Forall_D_indexed : Forall D (indexed names).
Proof. apply Forall_forall. intros x H. exact H. Qed.

(** The sort never reaches std's "not a total order" panic, and returns the
    insertion-sorted list. *)
Lemma sort_args_ok : forall attr b,
  sort_args V vcmp fparse attr b names =
  Ok (map fst (isort (revc b (arg_cmp attr)) (indexed names))).
Proof.
  intros attr b. unfold sort_args.
  rewrite (proj1 (sort_by_ok D _ (tpo_rev_arg_cmp_D attr b) _ Forall_D_indexed)). reflexivity.
Qed.

(** Whatever algorithm [sort_by] uses: any sorted permutation of the indexed
    arguments is this one. *)
Lemma sort_args_unique : forall attr b l,
  Permutation (indexed names) l -> ssorted (revc b (arg_cmp attr)) l ->
  l = isort (revc b (arg_cmp attr)) (indexed names).
Proof.
  intros attr b l. apply (isort_unique D _ (tpo_rev_arg_cmp_D attr b)); [|exact Forall_D_indexed].
  intros x y Dx Dy E. apply (arg_cmp_strict attr x y Dx Dy), (revc_eq b), E.
Qed.

(** [--sortr] is exactly the reverse of [--sort]. *)
Lemma sort_args_reverse : forall attr,
  isort (revc true (arg_cmp attr)) (indexed names) =
  rev (isort (revc false (arg_cmp attr)) (indexed names)).
Proof.
  intros attr. apply (rev_isort_unique D (arg_cmp attr) (tpo_arg_cmp_D attr)).
  - intros x y Dx Dy. apply arg_cmp_strict; assumption.
  - exact Forall_D_indexed.
  - apply isort_perm.
  - apply (isort_sorted D _ (tpo_rev_arg_cmp_D attr true)). exact Forall_D_indexed.
Qed.

End SortArgs.

Lemma argcmp_strict_total : forall V vcmp fparse names attr,
  oracle_ok_on V vcmp fparse (in_names names) ->
  let c := arg_cmp V vcmp fparse attr in
  let D := D names in
  (forall x y, D x -> D y -> c y x = CompOpp (c x y)) /\
  (forall x y z, D x -> D y -> D z -> c x y = Lt -> c y z = Lt -> c x z = Lt) /\
  (forall x y z, D x -> D y -> D z -> c x y = Eq -> c x z = c y z) /\
  (forall x y, D x -> D y -> (c x y = Eq <-> x = y)).
Proof.
  intros V vcmp fparse names attr OK. pose proof (tpo_arg_cmp_D V vcmp fparse names OK attr) as T.
  split; [apply T|split; [apply T|split; [apply T|]]].
  exact (arg_cmp_strict V vcmp fparse names OK attr).
Qed.

Lemma argcmp_numeric : forall V vcmp fparse (P : bytes -> Prop),
  oracle_ok_on V vcmp fparse P ->
  forall a b, P a -> P b ->
  (forall x y, fparse a = Some x -> fparse b = Some y ->
     name_cmp V vcmp fparse a b =
     match vcmp x y with
     | Eq => match int_val a, int_val b with
             | Some p, Some q => (p ?= q)%Z
             | Some _, None => Lt
             | None, Some _ => Gt
             | None, None => Eq
             end
     | o => o
     end) /\
  (forall x, fparse a = Some x -> fparse b = None ->
     name_cmp V vcmp fparse a b = Lt /\ name_cmp V vcmp fparse b a = Gt) /\
  (fparse a = None -> fparse b = None ->
     name_cmp V vcmp fparse a b = natural_cmp a b).
Proof.
  intros V vcmp fparse P OK a b Pa Pb.
  rewrite !(name_cmp_spec V vcmp fparse P OK) by assumption. unfold spec_name_cmp.
  split; [|split].
  - intros x y -> ->. reflexivity.
  - intros x -> ->. split; reflexivity.
  - intros -> ->. symmetry. apply natural_cmp_key.
Qed.

Lemma sort_perm_unique : forall V vcmp fparse names attr rev,
  oracle_ok_on V vcmp fparse (in_names names) ->
  let c := revc rev (arg_cmp V vcmp fparse attr) in
  sort_args V vcmp fparse attr rev names = Ok (map fst (isort c (indexed names))) /\
  Permutation (indexed names) (isort c (indexed names)) /\
  ssorted c (isort c (indexed names)) /\
  (forall l, Permutation (indexed names) l -> ssorted c l -> l = isort c (indexed names)).
Proof.
  intros V vcmp fparse names attr rev OK.
  destruct (sort_by_ok (D names) _ (tpo_rev_arg_cmp_D V vcmp fparse names OK attr rev) _
              (Forall_D_indexed names)) as (_ & Pm & So).
  split; [exact (sort_args_ok V vcmp fparse names OK attr rev)|split; [exact Pm|split; [exact So|]]].
  exact (sort_args_unique V vcmp fparse names OK attr rev).
Qed.

Lemma tie_breakers_table :
  with_tie_breakers SKind = [SKind; SName; SLocation] /\
  with_tie_breakers SName = [SName; SLocation; SKind] /\
  with_tie_breakers SLocation = [SLocation; SKind; SName].
Proof. repeat split; reflexivity. Qed.

Lemma tpo_Qcompare : tpo_on all Qcompare.
Proof.
  split; [|split].
  - intros x y _ _. symmetry. apply Qcompare_antisym.
  - intros x y z _ _ _ H1 H2. apply Qlt_alt. apply Qlt_trans with y; apply Qlt_alt; assumption.
  - intros x y z _ _ _ H. apply Qeq_alt in H. rewrite H. reflexivity.
Qed.

(** [fval_cmp] compares by (minus infinity, finite, plus infinity), then by value. *)
Definition fval_key (x : fval) : N * Q :=
  match x with FNegInf => (0, 0%Q) | FFin q => (1, q) | FPosInf => (2, 0%Q) end.

Lemma tpo_fval_cmp : tpo_on all fval_cmp.
Proof.
  apply (tpo_via all all fval_key fval_cmp (paircmp N.compare Qcompare)); [intros; exact I| |].
  - intros [|p|] [|q|] _ _; reflexivity.
  - exact (tpo_pair _ _ tpo_N tpo_Qcompare).
Qed.

Lemma span_digits_all : forall d, all_digits d = true -> span_digits d = (d, []).
Proof.
  induction d as [|c r IH]; intros H; simpl; [reflexivity|].
  simpl in H. apply Bool.andb_true_iff in H. destruct H as [Hc Hr].
  rewrite Hc, (IH Hr). reflexivity.
Qed.

Lemma parse_number_digits : forall d, int_digits_ok d = true ->
  parse_number d = Some (digits_val d, 0%Z).
Proof.
  intros d H. unfold int_digits_ok in H. apply Bool.andb_true_iff in H. destruct H as [Hn Hd].
  unfold parse_number. rewrite (span_digits_all d Hd).
  destruct d as [|c r]; [discriminate|]. simpl is_nil. simpl andb. cbv iota.
  rewrite app_nil_r. reflexivity.
Qed.

Lemma dec_parse_int : forall s z, int_val s = Some z ->
  dec_parse s = Some (FFin (Qmake (z * 1) 1)).
Proof.
  intros s z H. apply int_val_shape in H. destruct H as (c & r & -> & Hd & -> & _).
  unfold dec_parse. cbv zeta in *. rewrite (parse_number_digits _ Hd).
  apply Bool.andb_true_iff, proj1, Bool.negb_true_iff in Hd. rewrite Hd.
  destruct (c =? 45); reflexivity.
Qed.

Lemma dec_cmp_ints : forall a b x y va vb, int_val a = Some x -> int_val b = Some y ->
  dec_parse a = Some va -> dec_parse b = Some vb -> fval_cmp va vb = (x ?= y)%Z.
Proof.
  intros a b x y va vb Ia Ib Fa Fb.
  rewrite (dec_parse_int a x Ia) in Fa. rewrite (dec_parse_int b y Ib) in Fb.
  injection Fa as <-. injection Fb as <-. simpl. unfold Qcompare. simpl.
  rewrite !Z.mul_1_r. reflexivity.
Qed.

Lemma oracle_dec_ok : forall P, oracle_ok_on fval fval_cmp dec_parse P.
Proof.
  intros P. split; [exact tpo_fval_cmp|split; [|split]].
  - intros s _ H. destruct (int_val s) as [z|] eqn:E; [|congruence].
    rewrite (dec_parse_int s z E). discriminate.
  - intros a b x y va vb _ _ Ia Ib Fa Fb Hle.
    rewrite (dec_cmp_ints a b x y va vb Ia Ib Fa Fb). apply Z.compare_le_iff. exact Hle.
  - intros a b x va vb _ _ Ia Ib Fa Fb E.
    rewrite (dec_cmp_ints a b x 0%Z va vb Ia Ib Fa Fb) in E. apply Z.compare_eq. exact E.
Qed.

(** An oracle that rounds like f64 beyond 2^53: mapping 2^53, 2^53+1 and
    "9007199254740992.0" to one value is monotone but not exact.  The
    comparator before commit 6cb0c72 (float-[Equal] names simply tie) is then
    not a preorder on these three names: the integers are ordered exactly, yet
    both tie with the decimal (the real crate panicked in [sort_by] on 21 such
    names).  The comparator since that commit orders them:
    2^53 < 2^53+1 < "9007199254740992.0". *)
Definition n_2p53 : bytes := [57;48;48;55;49;57;57;50;53;52;55;52;48;57;57;50].
Definition n_2p53_1 : bytes := [57;48;48;55;49;57;57;50;53;52;55;52;48;57;57;51].
Definition n_2p53_dot0 : bytes := n_2p53 ++ [46; 48].

Definition rounding_oracle (s : bytes) : option Z :=
  if bytes_eqb s n_2p53 || bytes_eqb s n_2p53_1 || bytes_eqb s n_2p53_dot0
  then Some (2 ^ 53)%Z else None.

(** [cmp_bench_arg_names]' [Name] arm before 6cb0c72. *)
Definition old_float_cmp {V} (vcmp : V -> V -> comparison) (fparse : bytes -> option V) (a b : bytes) : comparison :=
  match fparse a, fparse b with
  | Some x, Some y => vcmp x y
  | Some _, None => Lt
  | None, Some _ => Gt
  | None, None => natural_cmp a b
  end.

Definition old_name_cmp {V} (vcmp : V -> V -> comparison) (fparse : bytes -> option V) (a b : bytes) : comparison :=
  match parse_u128 a, parse_u128 b with
  | Some x, Some y => x ?= y
  | Some _, None => if neg_i128 b then Gt else old_float_cmp vcmp fparse a b
  | None, Some _ => if neg_i128 a then Lt else old_float_cmp vcmp fparse a b
  | None, None =>
      match parse_i128 a, parse_i128 b with
      | Some x, Some y => (x ?= y)%Z
      | _, _ => old_float_cmp vcmp fparse a b
      end
  end.

Example rounding_oracle_broke_old_comparator :
  old_name_cmp Z.compare rounding_oracle n_2p53 n_2p53_1 = Lt /\
  old_name_cmp Z.compare rounding_oracle n_2p53 n_2p53_dot0 = Eq /\
  old_name_cmp Z.compare rounding_oracle n_2p53_1 n_2p53_dot0 = Eq.
Proof. vm_compute. repeat split. Qed.

Example rounding_oracle_new_comparator :
  name_cmp Z Z.compare rounding_oracle n_2p53 n_2p53_1 = Lt /\
  name_cmp Z Z.compare rounding_oracle n_2p53 n_2p53_dot0 = Lt /\
  name_cmp Z Z.compare rounding_oracle n_2p53_1 n_2p53_dot0 = Lt.
Proof. vm_compute. repeat split. Qed.

(** The rounding oracle satisfies the hypotheses on these names (it is not
    exact, only monotone): the theorems apply to it. *)
Example rounding_oracle_ok :
  oracle_ok_on Z Z.compare rounding_oracle (fun s => In s [n_2p53; n_2p53_1; n_2p53_dot0]).
Proof.
  assert (F : forall s v, rounding_oracle s = Some v -> v = (2 ^ 53)%Z).
  { intros s v. unfold rounding_oracle. destruct (_ || _); congruence. }
  split; [exact tpo_Z|split; [|split]].
  - intros s [<-|[<-|[<-|[]]]] _; vm_compute; discriminate.
  - intros a b x y va vb _ _ _ _ Fa Fb _. rewrite (F a va Fa), (F b vb Fb). discriminate.
  - intros a b x va vb _ [<-|[<-|[<-|[]]]] _ Ib; vm_compute in Ib; discriminate.
Qed.
