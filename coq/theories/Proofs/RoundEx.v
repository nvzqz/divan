(** C08: concrete executions - the pre-fix protocol deadlocks
    (F5), and the hypotheses of the theorems are satisfiable by non-trivial
    executions. *)
From Coq Require Import List Arith Lia NArith.
From DivanV Require Import Model.Round Proofs.RoundBase.
Import ListNotations.

Fixpoint run_labels (c : config) (st : state) (tr : list label) : option state :=
  match tr with
  | [] => Some st
  | l :: t => match step c st l with Some st' => run_labels c st' t | None => None end
  end.

Lemma run_labels_exec : forall c tr st st', run_labels c st tr = Some st' -> exec_from c st tr st'.
Proof.
  intros c tr. induction tr as [|l t IH]; intros st st' H; cbn in H.
  - inversion H; subst. constructor.
  - destruct (step c st l) as [s|] eqn:S; [|discriminate]. econstructor; eauto.
Qed.

Definition cfg2 (g : bool) (flt : nat -> nat -> nat -> bool) : config :=
  {| nthreads := 2; nrounds := 1; ssize := fun _ => 1; shp := {| drop_out := false; drop_in := false |};
     guard := g; has_info := fun _ => true; fault := flt; allocs := fun i _ p => [Alloc (N.of_nat (100 * i + p))] |}.

(** Thread 1 panics in its (only) call of the benchmarked function (position n+4 = 5). *)
Definition flt1 (i r p : nat) : bool := (i =? 1) && (r =? 0) && (p =? 5).

Definition t0 := LThread 0.
Definition t1 := LThread 1.

(** Both threads generate, pass the two waits around the clear, take the start
    timestamp; thread 1 panics in the call; thread 0 finishes the call, takes
    the end timestamp and arrives at the last wait. *)
Definition tr_upto_panic : list label :=
  [LStart; t0; t1; t0; t1; t0; t0; t1; t0; t1; t0; t0; t1; t1; t0; t0; t0].

(** Without the guard (the code before 80a110a) thread 1 is gone and thread 0
    waits forever: the state is not final and no step is enabled. *)
Example old_deadlocks :
  exists tr st, exec_from (cfg2 false flt1) (init (cfg2 false flt1)) tr st /\
                final st = false /\ forall l, step (cfg2 false flt1) st l = None.
Proof.
  exists tr_upto_panic. eexists. split; [apply run_labels_exec; vm_compute; reflexivity|].
  split; [reflexivity|].
  intros [| |[|[|[|i]]]]; reflexivity.
Qed.

(** With the guard the same schedule goes on: thread 1 performs the missing
    wait, both finish, and the caller panics for thread 1. *)
Example new_terminates :
  exists tr st, exec_from (cfg2 true flt1) (init (cfg2 true flt1)) tr st /\
                gp st = GEnd (Some 1) /\ expected (cfg2 true flt1) = Some (0, 1).
Proof.
  exists (tr_upto_panic ++ [t1; t1; t0; t0; t0; LJoin]). eexists.
  split; [apply run_labels_exec; vm_compute; reflexivity|].
  split; reflexivity.
Qed.

Definition nofault (i r p : nat) : bool := false.

(** A reachable state in which one thread is inside its timed section. *)
Example phase_order_hyps :
  exists c st, 2 <= nthreads c /\ fixed_code c /\ reachable c st /\ gp st = GRun /\
               exists ti, In ti (ths st) /\ ssize c (round st) + 3 < pc ti.
Proof.
  exists (cfg2 true nofault). eexists. split; [cbn; lia|]. split; [split; [reflexivity|intros; reflexivity]|]. split.
  { exists [LStart; t0; t1; t0; t1; t0; t0; t1; t0; t1; t0; t0].
    apply run_labels_exec; vm_compute; reflexivity. }
  split; [reflexivity|].
  eexists. split; [left; reflexivity|]. cbn. lia.
Qed.

(** A complete run without faults: ends normally, every sample has its own calls' operations. *)
Example clean_run :
  exists tr st, exec_from (cfg2 true nofault) (init (cfg2 true nofault)) tr st /\
                gp st = GEnd None /\ expected (cfg2 true nofault) = None /\
                map result (ths st) = [Some [Alloc 5%N]; Some [Alloc 105%N]].
Proof.
  exists [LStart; t0; t1; t0; t1; t0; t0; t1; t0; t1; t0; t0; t1; t1; t0; t0; t0; t1; t1; t0; t0; t0; t1; t1; LJoin; LStart].
  eexists. split; [apply run_labels_exec; vm_compute; reflexivity|].
  repeat split; reflexivity.
Qed.

(** A model execution with a panic produces a non-trivial log. *)
Example log_sb_hyps :
  (forall r, ssize (cfg2 true flt1) r = 1) /\
  length (events (cfg2 true flt1) (init (cfg2 true flt1)) (tr_upto_panic ++ [t1; t1; t0; t0; t0; LJoin])) = 18.
Proof. split; [reflexivity|]. vm_compute. reflexivity. Qed.

(** A latent hazard of [sync_impl], not reachable on Linux: if
    [ThreadAllocInfo::current()] is None on one thread only, that thread waits
    twice per sample and the others three times; the guard does not help (the
    thread does not panic) and the round deadlocks.  T = 2, thread 1 without
    thread-local info, no fault at all. *)
Definition cfg2_noinfo1 : config :=
  {| nthreads := 2; nrounds := 1; ssize := fun _ => 1; shp := {| drop_out := false; drop_in := false |};
     guard := true; has_info := fun i => negb (i =? 1); fault := nofault; allocs := fun _ _ _ => [] |}.

Example mixed_info_deadlocks :
  exists tr st, exec_from cfg2_noinfo1 (init cfg2_noinfo1) tr st /\
                final st = false /\ forall l, step cfg2_noinfo1 st l = None.
Proof.
  exists [LStart; t0; t1; t0; t1; t0; t0; t0; t1; t1; t1; t1; t0; t0; t0; t0; t0; t1; t1].
  eexists. split; [apply run_labels_exec; vm_compute; reflexivity|].
  split; [reflexivity|].
  intros [| |[|[|[|i]]]]; reflexivity.
Qed.
