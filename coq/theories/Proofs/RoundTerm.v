(** C08: termination (a strictly decreasing measure) and the
    outcome of every maximal execution as a function of the fault set. *)
From Coq Require Import List Arith Bool Lia.
From DivanV Require Import Model.Round Proofs.RoundBase Proofs.RoundInv Proofs.ListFacts.
Import ListNotations.

Lemma mu_tcase : forall c r i th b th' b',
  tcase c r i th b th' b' -> mu (ssize c r) (shp c) th' < mu (ssize c r) (shp c) th.
Proof.
  intros c r i th b th' b' TC.
  destruct TC;
    unfold mu; cbn [pc md blk remaining next_pc set_blk set_md set_rem];
    rewrite ?exec_pc, ?exec_md, ?exec_blk, ?exec_remaining; rewrite ?M, ?BL;
    try apply prog_lt in NA; try lia.
  - destruct (guard c); lia.
Qed.

Lemma rounds_cost_unfold : forall c r R, r < R ->
  rounds_cost c r (R - r) = round_cost c r + rounds_cost c (S r) (R - S r).
Proof. intros c r R H. replace (R - r) with (S (R - S r)) by lia. reflexivity. Qed.

Lemma measure_step : forall c st l st',
  fixed_code c -> Inv c st -> step c st l = Some st' -> measure c st' < measure c st.
Proof.
  intros c st l st' GD [L _] S. apply (step_cases _ _ _ _ (proj2 GD)) in S.
  destruct S; unfold measure; cbn [gp round ths]; rewrite G; try lia.
  - rewrite (rounds_cost_unfold _ _ _ R). unfold round_cost.
    rewrite map_map.
    rewrite (sum_map_const _ _ (2 * plen (ssize c (round st)) (shp c) + 9)).
    + rewrite L. lia.
    + intros x _. unfold mu, fresh; cbn. lia.
  - pose proof (sum_upd _ (mu (ssize c (round st)) (shp c)) i th' th (ths st) N).
    pose proof (mu_tcase _ _ _ _ _ _ _ TC). lia.
Qed.

Lemma measure_decreases_reachable : forall c st l st',
  1 <= nthreads c -> fixed_code c -> reachable c st ->
  step c st l = Some st' -> measure c st' < measure c st.
Proof. intros c st l st' T G R. apply measure_step; auto. apply inv_reachable; assumption. Qed.

Lemma exec_bound : forall c st tr st',
  1 <= nthreads c -> fixed_code c -> exec_from c st tr st' -> Inv c st ->
  length tr + measure c st' <= measure c st.
Proof.
  intros c st tr st' T1 GD E. induction E; intros I; cbn [length]; [lia|].
  pose proof (measure_step _ _ _ _ GD I H).
  assert (Inv c st') by (eapply inv_step; eauto). specialize (IHE H1). lia.
Qed.

Lemma find_idx_pointwise : forall A B (p : A -> bool) (q : B -> bool) l1 l2,
  length l1 = length l2 ->
  (forall j x y, nth_error l1 j = Some x -> nth_error l2 j = Some y -> p x = q y) ->
  find_idx p l1 = find_idx q l2.
Proof.
  intros A B p q l1. induction l1 as [|x t IH]; intros [|y u] L H; try discriminate; [reflexivity|].
  cbn. rewrite (H 0 x y eq_refl eq_refl), (IH u); auto. intros j. apply (H (S j)).
Qed.

Lemma find_idx_seq_inv : forall (f : nat -> bool) n k,
  find_idx f (seq 0 n) = Some k -> k < n /\ f k = true /\ forall j, j < k -> f j = false.
Proof.
  intros f n k H. destruct (find_idx_some _ _ _ _ H) as (x & N & P & L).
  pose proof (nth_error_lt _ _ _ N) as K. rewrite seq_length in K.
  rewrite nth_error_seq in N by lia. inversion N; subst. cbn in *. repeat split; auto.
  intros j Hj. apply (L j j); auto. rewrite nth_error_seq by lia. reflexivity.
Qed.

Lemma find_idx_seq_none_inv : forall (f : nat -> bool) n,
  find_idx f (seq 0 n) = None -> forall j, j < n -> f j = false.
Proof.
  intros f n H j Hj. apply (find_idx_none _ _ _ H). apply in_seq. lia.
Qed.

Definition tf_ok (c : config) (r i : nat) (th : thread) : Prop :=
  match md th with
  | Run => forall p, p < pc th -> userpos (ssize c r) (shp c) p = true -> fault c i r p = false
  | Returned => thread_faults c r i = false
  | Unwind | Unwound => thread_faults c r i = true
  end.

Definition FInv (c : config) (st : state) : Prop :=
  (forall r, r < round st -> round_faulty c r = None) /\
  match gp st with
  | GIdle => round st <= nrounds c
  | GRun => round st < nrounds c /\ forall i th, nth_error (ths st) i = Some th -> tf_ok c (round st) i th
  | GEnd None => round st = nrounds c
  | GEnd (Some k) => round st < nrounds c /\ round_faulty c (round st) = Some k
  end.

Lemma thread_faults_true : forall c r i p,
  userpos (ssize c r) (shp c) p = true -> fault c i r p = true -> thread_faults c r i = true.
Proof.
  intros c r i p U F. unfold thread_faults. apply existsb_exists. exists p. split.
  - apply in_seq. pose proof (userpos_lt _ _ _ U). lia.
  - rewrite U, F. reflexivity.
Qed.

Lemma thread_faults_false : forall c r i,
  (forall p, p < plen (ssize c r) (shp c) -> userpos (ssize c r) (shp c) p = true -> fault c i r p = false) ->
  thread_faults c r i = false.
Proof.
  intros c r i H. unfold thread_faults. destruct (existsb _ _) eqn:E; auto.
  apply existsb_exists in E. destruct E as (p & HI & X). apply in_seq in HI.
  apply andb_true_iff in X. destruct X as [U F]. rewrite (H p) in F; [discriminate|lia|auto].
Qed.

Lemma no_fault_below_S : forall (u f : nat -> bool) k,
  (forall p, p < k -> u p = true -> f p = false) -> (u k = true -> f k = false) ->
  forall p, p < S k -> u p = true -> f p = false.
Proof. intros u f k H HK p Hp. destruct (Nat.eq_dec p k) as [->|]; [exact HK|apply H; lia]. Qed.

Lemma tf_ok_tcase : forall c r i th b th' b',
  guard c = true ->
  thread_ok (ssize c r) (shp c) (bgen b) th ->
  tcase c r i th b th' b' -> tf_ok c r i th -> tf_ok c r i th'.
Proof.
  intros c r i th b th' b' GD OK TC T.
  destruct TC;
    unfold tf_ok in *; cbn [pc md blk remaining next_pc set_blk set_md set_rem];
    rewrite ?exec_pc, ?exec_md; rewrite ?M in *; auto.
  - (* leave a wait: the position passed is a wait, not user code *)
    pose proof (blocked_at_wait _ _ _ _ _ OK M BL) as W. apply no_fault_below_S; [exact T|]. intros U.
    apply userpos_nowait in U. congruence.
  - apply thread_faults_false. intros p Hp U. apply T; auto. lia.
  - apply no_fault_below_S; [exact T|]. intros U. apply userpos_nowait in U. congruence.
  - rewrite GD. eapply thread_faults_true; eauto.
  - apply no_fault_below_S; [exact T|exact FL].
Qed.

(** At the join the first slot the caller finds empty is that of the least faulting thread. *)
Lemma join_faulty : forall c st,
  length (ths st) = nthreads c -> forallb finished (ths st) = true ->
  (forall i th, nth_error (ths st) i = Some th -> tf_ok c (round st) i th) ->
  find_idx (fun th => negb (returned th)) (ths st) = round_faulty c (round st).
Proof.
  intros c st L F Q. apply find_idx_pointwise; [rewrite seq_length; exact L|].
  intros j x y Nx Ny.
  pose proof (nth_error_lt _ _ _ Ny) as JL. rewrite seq_length in JL.
  rewrite nth_error_seq in Ny by exact JL. injection Ny as <-.
  pose proof (Q j x Nx) as T. rewrite forallb_forall in F. pose proof (F x (nth_error_In _ _ Nx)) as FX.
  unfold tf_ok, finished, returned in *. destruct (md x); try discriminate; rewrite T; reflexivity.
Qed.

Lemma finv_init : forall c, FInv c (init c).
Proof. intros c. split; cbn; [intros; lia|lia]. Qed.

Lemma finv_step : forall c st l st',
  fixed_code c -> Inv c st -> FInv c st -> step c st l = Some st' -> FInv c st'.
Proof.
  intros c st l st' GD [L K] [P Q] S. apply (step_cases _ _ _ _ (proj2 GD)) in S.
  destruct S; rewrite G in Q;
    unfold FInv; cbn [gp round ths bar].
  - split; auto. split; auto. intros i th Hi.
    apply nth_error_In in Hi. apply in_map_iff in Hi. destruct Hi as (y & <- & _).
    unfold tf_ok, fresh; cbn. intros; lia.
  - split; auto. lia.
  - destruct Q as [RL Q]. rewrite (join_faulty _ _ L F Q) in X. auto.
  - destruct Q as [RL Q]. rewrite (join_faulty _ _ L F Q) in X. split; [|lia].
    intros r Hr. destruct (Nat.eq_dec r (round st)) as [->|NE]; [exact X|apply P; lia].
  - destruct Q as [RL Q]. split; auto. split; auto.
    destruct (K G) as (_ & _ & C).
    intros j y Hj. destruct (nth_error_upd_inv _ _ _ _ _ _ Hj) as [[-> ->]|[NE Hj']]; [|apply Q; auto].
    apply (tf_ok_tcase _ _ _ _ _ _ _ (proj1 GD) (C th (nth_error_In _ _ N)) TC), Q, N.
Qed.

Lemma first_fault_skip : forall c r k,
  round_faulty c r = None -> first_fault c r (S k) = first_fault c (S r) k.
Proof. intros c r k H. cbn. rewrite H. reflexivity. Qed.

Lemma first_fault_from : forall c r,
  r <= nrounds c -> (forall r', r' < r -> round_faulty c r' = None) ->
  expected c = first_fault c r (nrounds c - r).
Proof.
  intros c r. unfold expected. induction r as [|r IH]; intros L H.
  - rewrite Nat.sub_0_r. reflexivity.
  - rewrite IH by (try lia; intros; apply H; lia).
    replace (nrounds c - r) with (S (nrounds c - S r)) by lia.
    apply first_fault_skip. apply H. lia.
Qed.

Lemma finv_final : forall c st o,
  FInv c st -> gp st = GEnd o -> o = option_map snd (expected c).
Proof.
  intros c st o [P Q] G. rewrite G in Q. destruct o as [k|].
  - destruct Q as [RL RF]. rewrite (first_fault_from c (round st)) by (auto; lia).
    replace (nrounds c - round st) with (S (nrounds c - S (round st))) by lia.
    cbn. rewrite RF. reflexivity.
  - rewrite (first_fault_from c (round st)) by (auto; lia).
    rewrite Q, Nat.sub_diag. reflexivity.
Qed.

Lemma first_fault_none : forall c r k,
  first_fault c r k = None <-> forall r', r <= r' < r + k -> round_faulty c r' = None.
Proof.
  intros c r k. revert r. induction k as [|k IH]; intros r; cbn.
  - split; auto. intros; lia.
  - destruct (round_faulty c r) eqn:E.
    + split; [discriminate|]. intros H. rewrite (H r) in E by lia. discriminate.
    + rewrite IH. split; intros H r' Hr.
      * destruct (Nat.eq_dec r' r) as [->|]; auto. apply H. lia.
      * apply H. lia.
Qed.

Lemma first_fault_some : forall c r k r1 i,
  first_fault c r k = Some (r1, i) ->
  r <= r1 < r + k /\ round_faulty c r1 = Some i /\ forall r', r <= r' < r1 -> round_faulty c r' = None.
Proof.
  intros c r k. revert r. induction k as [|k IH]; intros r r1 i H; cbn in H; [discriminate|].
  destruct (round_faulty c r) eqn:E.
  - inversion H; subst. repeat split; auto; try lia; try (intros; lia).
  - destruct (IH _ _ _ H) as (A & B & C). repeat split; auto; try lia.
    intros r' Hr. destruct (Nat.eq_dec r' r) as [->|]; auto. apply C. lia.
Qed.

Definition no_fault_in_range (c : config) : Prop :=
  forall r i p, r < nrounds c -> i < nthreads c ->
    p < plen (ssize c r) (shp c) -> userpos (ssize c r) (shp c) p = true -> fault c i r p = false.

Lemma expected_none_iff : forall c, expected c = None <-> no_fault_in_range c.
Proof.
  intros c. unfold expected. rewrite first_fault_none. unfold no_fault_in_range. split.
  - intros H r i p Hr Hi Hp U.
    pose proof (H r ltac:(lia)) as RF. unfold round_faulty in RF.
    pose proof (find_idx_seq_none_inv _ _ RF i Hi) as TF. cbv beta in TF.
    destruct (fault c i r p) eqn:F; auto.
    rewrite (thread_faults_true c r i p U F) in TF. discriminate.
  - intros H r [_ Hr]. cbn in Hr. unfold round_faulty. apply find_idx_all_false.
    intros j Hj. apply in_seq in Hj. apply thread_faults_false. intros p Hp U. apply H; auto. lia.
Qed.

Lemma expected_some : forall c r k,
  expected c = Some (r, k) ->
  r < nrounds c /\ k < nthreads c /\ thread_faults c r k = true /\
  (forall j, j < k -> thread_faults c r j = false) /\
  (forall r', r' < r -> round_faulty c r' = None).
Proof.
  intros c r k H. unfold expected in H. destruct (first_fault_some _ _ _ _ _ H) as (A & B & C).
  unfold round_faulty in B. destruct (find_idx_seq_inv _ _ _ B) as (K & F & L).
  repeat split; auto; try lia. intros. apply C. lia.
Qed.

Theorem panic_terminates : forall c tr st,
  1 <= nthreads c -> fixed_code c ->
  exec_from c (init c) tr st ->
  length tr <= measure c (init c) /\
  ((forall l, step c st l = None) -> gp st = GEnd (option_map snd (expected c))).
Proof.
  intros c tr st T1 GD E.
  pose proof (exec_bound _ _ _ _ T1 GD E (inv_init c)) as B.
  assert (reachable c st) as R by (exists tr; exact E).
  pose proof (inv_reachable _ _ T1 GD R) as I.
  assert (FInv c st) as FI.
  { apply (reachable_inv c (FInv c)); [apply finv_init| |exact R].
    intros s l s' RS FS ST. exact (finv_step _ _ _ _ GD (inv_reachable _ _ T1 GD RS) FS ST). }
  split; [lia|].
  intros STUCK. destruct (final st) eqn:F.
  - unfold final in F. destruct (gp st) eqn:G; try discriminate.
    f_equal. eapply finv_final; eauto.
  - destruct (deadlock_free _ _ I F) as (l & st' & S). rewrite STUCK in S. discriminate.
Qed.
