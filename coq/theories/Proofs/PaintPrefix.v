(** C20, prefix invariant: for ANY sequence of painter operations that does not
    panic, the depth is the number of open parents and the prefix consists of
    exactly one three-column unit per open parent below the top level: a bar
    if that parent was opened with [is_last = false], spaces otherwise. *)
From DivanV Require Import Base.Res Model.Painter Model.DriverPaint Model.Parse Proofs.Painter Proofs.PaintDriver.

(** The open parents, tracked from the operations alone: [None] = no parent
    open; [Some ls] = a top-level parent is open and [ls] are the [is_last]
    flags of the open parents below it, outermost first. *)
Definition track (st : option (list bool)) (o : op) : option (option (list bool)) :=
  match o with
  | StartParent _ l => Some (match st with None => Some [] | Some ls => Some (ls ++ [l]) end)
  | FinishParent =>
    match st with
    | None => None
    | Some [] => Some None
    | Some ls => Some (Some (removelast ls))
    end
  | _ => Some st
  end.

Fixpoint track_ops (st : option (list bool)) (ops : list op) : option (option (list bool)) :=
  match ops with
  | [] => Some st
  | o :: r => match track st o with Some st' => track_ops st' r | None => None end
  end.

Definition st_depth (st : option (list bool)) : nat :=
  match st with None => 0 | Some ls => S (length ls) end.

(** [true] = the open parent has later siblings. *)
Definition st_flags (st : option (list bool)) : list bool :=
  match st with None => [] | Some ls => map negb ls end.

Lemma step_pos : forall p o p1 out,
  step p o = Ok (p1, out) ->
  match o with
  | StartParent _ l =>
    depth p1 = S (depth p) /\
    prefix p1 = if Nat.eqb (depth p) 0 then prefix p
                else prefix p ++ (if negb l then u_bar else u_blank)
  | FinishParent =>
    depth p = S (depth p1) /\ prefix p1 = firstn (length (prefix p) - 3) (prefix p)
  | _ => depth p1 = depth p /\ prefix p1 = prefix p
  end.
Proof.
  intros p o p1 out E. destruct o; cbn [step] in E.
  - unfold start_parent in E.
    destruct (if has_columns p then right_pad _ _ else _) as [pad span].
    destruct (if has_columns p then write_cols _ _ else _) as [[s ws]|]; [|discriminate].
    injection E as <- _. split; reflexivity.
  - unfold finish_parent in E. destruct (depth p) as [|d]; [discriminate|].
    injection E as <- _. split; reflexivity.
  - unfold start_leaf in E. destruct (if has_columns p then right_pad _ _ else _) as [pad span].
    injection E as <- _. split; reflexivity.
  - injection E as <- _. split; reflexivity.
  - unfold finish_leaf in E.
    destruct (write_cols _ _) as [[s ws]|]; [|discriminate]. cbn [bind fst snd] in E.
    destruct (write_rows _ _ _ _ _) as [[[o2 sp2] ws2]|]; [|discriminate].
    injection E as <- _. split; reflexivity.
  - unfold ignore_leaf in E. destruct (right_pad _ _) as [pad span].
    destruct (if has_columns p then write_cols _ _ else _) as [[s ws]|]; [|discriminate].
    injection E as <- _. split; reflexivity.
  - injection E as <- _. split; reflexivity.
Qed.

Lemma step_track : forall p o p1 out st,
  depth p = st_depth st -> prefix p = units_str (st_flags st) ->
  step p o = Ok (p1, out) ->
  exists st', track st o = Some st' /\ depth p1 = st_depth st' /\ prefix p1 = units_str (st_flags st').
Proof.
  intros p o p1 out st Hd Hp E. apply step_pos in E.
  destruct o; cbn [track]; destruct E as [Ed Ep]; try (exists st; split; [reflexivity | split; congruence]).
  - (* StartParent *)
    eexists. split; [reflexivity|]. rewrite Ed, Ep, Hd.
    destruct st as [ls|]; cbn [st_depth st_flags Nat.eqb]; [|auto].
    split; [rewrite last_length; reflexivity|].
    rewrite Hp, map_app, units_str_app. cbn [map units_str]. rewrite app_nil_r. reflexivity.
  - (* FinishParent *)
    destruct st as [ls|]; cbn [st_depth st_flags] in *; [|congruence].
    destruct ls as [|b ls'].
    + eexists. split; [reflexivity|]. cbn in *. split; [lia|]. rewrite Ep, Hp. reflexivity.
    + destruct (exists_last (l := b :: ls')) as (ls0 & b0 & E0); [congruence|].
      rewrite E0 in *. eexists. split; [reflexivity|].
      rewrite removelast_last. cbn [st_depth st_flags]. rewrite app_length in Hd. cbn in Hd.
      split; [lia|]. rewrite Ep, Hp, map_app. cbn [map]. apply firstn_units.
Qed.

Lemma exec_track : forall ops p p1 out st,
  depth p = st_depth st -> prefix p = units_str (st_flags st) ->
  exec p ops = Ok (p1, out) ->
  exists st', track_ops st ops = Some st' /\ depth p1 = st_depth st' /\
              prefix p1 = units_str (st_flags st').
Proof.
  induction ops as [|o r IH]; intros p p1 out st Hd Hp E.
  - injection E as <- _. exists st. auto.
  - cbn [exec] in E. destruct (step p o) as [[pa oa]|] eqn:Es; [|discriminate].
    cbn [bind fst snd] in E. destruct (exec pa r) as [[pb ob]|] eqn:Er; [|discriminate].
    cbn [bind fst snd] in E. injection E as -> _.
    destruct (step_track p o pa oa st Hd Hp Es) as (st1 & T1 & Hd1 & Hp1).
    destruct (IH pa p1 ob st1 Hd1 Hp1 Er) as (st2 & T2 & Hd2 & Hp2).
    exists st2. cbn [track_ops]. rewrite T1. auto.
Qed.

(** At every point of any run of the painter from its initial state. *)
Theorem prefix_invariant_ops : forall span ws ops p out,
  exec (painter_new span ws) ops = Ok (p, out) ->
  exists st, track_ops None ops = Some st /\ depth p = st_depth st /\
             prefix p = units_str (st_flags st) /\
             length (prefix p) = 3 * (depth p - 1).
Proof.
  intros span ws ops p out E.
  destruct (exec_track ops (painter_new span ws) p out None eq_refl eq_refl E) as (st & T & Hd & Hp).
  exists st. repeat split; auto. rewrite Hp, Hd, units_str_length.
  destruct st; cbn [st_flags st_depth]; [rewrite map_length|cbn]; lia.
Qed.

(** At every point of the painting of a tree. *)
Theorem prefix_invariant_paint : forall a t before after p out,
  paint a t = Ok (p, out) -> paint_ops a t = before ++ after ->
  exists p1 out1 st,
    exec (painter_new (max_span 0 t) (initial_widths a t)) before = Ok (p1, out1) /\
    track_ops None before = Some st /\ depth p1 = st_depth st /\
    prefix p1 = units_str (st_flags st) /\ length (prefix p1) = 3 * (depth p1 - 1).
Proof.
  intros a t before after p out E Hs. unfold paint in E. rewrite Hs, exec_app in E.
  destruct (exec _ before) as [[p1 out1]|] eqn:E1; [|discriminate].
  destruct (prefix_invariant_ops _ _ _ _ _ E1) as (st & T & Hd & Hp & Hl).
  exists p1, out1, st. auto.
Qed.

(** The driver closes every parent it opens. *)
Theorem paint_balanced : forall a t,
  forallb is_group t = true -> Forall wf_node t ->
  exists p out, paint a t = Ok (p, out) /\ track_ops None (paint_ops a t) = Some None.
Proof.
  intros a t Hg Hwf. destruct (paint_layout a t Hg Hwf) as (p & out & E & Hd & Hp & _).
  exists p, out. split; [exact E|].
  unfold paint in E. destruct (prefix_invariant_ops _ _ _ _ _ E) as (st & T & Hd' & _).
  rewrite T. destruct st; [cbn in Hd'; lia | reflexivity].
Qed.
