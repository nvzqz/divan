(** Proofs about [Model/TreeCmp.v]: the sibling comparator is a total preorder
    on sibling sets satisfying three stated conditions; sorting a tree only
    permutes the children of each node and the arguments of each leaf. *)

From Coq Require Import Permutation.
From DivanV Require Import Base.Res Generated.Consts Model.Natural Model.SortBy Model.ArgCmp
  Model.TreeCmp Proofs.SortCmp Proofs.SortUniq Proofs.Natural Proofs.ArgCmp.
Local Open Scope N_scope.

Lemma tpo_loc_cmp : tpo_on all loc_cmp.
Proof. exact (tpo_pair _ _ tpo_bytes_cmp (tpo_pair _ _ tpo_N tpo_N)). Qed.

(** [None] below every [Some]: a sum with a one-point left side. *)
Lemma tpo_opt_cmp {A} (c : A -> A -> comparison) : tpo_on all c -> tpo_on all (opt_cmp c).
Proof.
  intros T.
  apply (tpo_via all all (fun o => match o with None => inl tt | Some x => inr x end) _
           (sumcmp (fun _ _ : unit => Eq) c)); [intros; exact I| |].
  - intros [x|] [y|] _ _; reflexivity.
  - exact (tpo_sum _ _ (tpo_const_eq all) T).
Qed.

Section Siblings.
Variable S : tree -> Prop.

(** Two siblings with the same entry address are the same entry. *)
Definition addr_identity : Prop :=
  forall x y a, S x -> S y -> entry_addr x = Some a -> entry_addr y = Some a -> x = y.

(** Siblings sharing a source location all have an entry address or none has
    (false only if one macro invocation produced a module and sibling
    benchmarks at one line and column). *)
Definition loc_addr_uniform : Prop :=
  forall x y, S x -> S y -> opt_cmp loc_cmp (location x) (location y) = Eq ->
    (entry_addr x = None <-> entry_addr y = None).

(** Either no sibling is a constant of a generic benchmark, or all are and
    they carry the same [partial_cmp] (constants of one benchmark have one type). *)
Definition consts_uniform : Prop :=
  forall x y, S x -> S y ->
    match leaf_const x, leaf_const y with
    | Some cx, Some cy => fst cx = fst cy
    | None, None => True
    | _, _ => False
    end.

Hypothesis H1 : addr_identity.
Hypothesis H2 : loc_addr_uniform.
Hypothesis H3 : consts_uniform.

Definition cval (t : tree) : Z := match leaf_const t with Some c => snd c | None => 0%Z end.
Definition caddr (t : tree) : N := match entry_addr t with Some a => a | None => 0 end.

Lemma name_cmp_tree_key : forall x y, S x -> S y ->
  name_cmp_tree x y =
  thenc (fun a b => (cval a ?= cval b)%Z) (fun a b => natural_cmp (display_name a) (display_name b)) x y.
Proof.
  intros x y Sx Sy. pose proof (H3 x y Sx Sy) as H.
  unfold name_cmp_tree, thenc, cval, const_cmp.
  destruct (leaf_const x) as [cx|]; destruct (leaf_const y) as [cy|]; try contradiction.
  - rewrite H, N.eqb_refl. reflexivity.
  - reflexivity.
Qed.

Lemma tpo_name_cmp_tree : tpo_on S name_cmp_tree.
Proof.
  apply (tpo_ext S _ _ name_cmp_tree_key). apply tpo_thenc.
  - exact (tpo_key S cval Z.compare tpo_Z).
  - exact (tpo_key S display_name natural_cmp tpo_natural_cmp).
Qed.

Lemma loc_cmp_tree_key : forall x y, S x -> S y ->
  attr_cmp_tree SLocation x y =
  thenc (fun a b => opt_cmp loc_cmp (location a) (location b)) (fun a b => caddr a ?= caddr b) x y.
Proof.
  intros x y Sx Sy. unfold attr_cmp_tree, thenc.
  destruct (opt_cmp loc_cmp (location x) (location y)) eqn:E; try reflexivity.
  pose proof (H2 x y Sx Sy E) as H. unfold addr_ordering, caddr.
  destruct (entry_addr x) as [a|]; destruct (entry_addr y) as [b|]; try reflexivity.
  - destruct H as [_ H]. specialize (H eq_refl). discriminate.
  - destruct H as [H _]. specialize (H eq_refl). discriminate.
Qed.

Lemma tpo_attr_cmp_tree : forall attr, tpo_on S (attr_cmp_tree attr).
Proof.
  intros [| |].
  - exact (tpo_key S kind Z.compare tpo_Z).
  - exact tpo_name_cmp_tree.
  - apply (tpo_ext S _ _ loc_cmp_tree_key). apply tpo_thenc.
    + exact (tpo_key S location _ (tpo_opt_cmp loc_cmp tpo_loc_cmp)).
    + exact (tpo_key S caddr N.compare tpo_N).
Qed.

Lemma tpo_tree_cascade : forall attr,
  tpo_on S (cascade (map attr_cmp_tree (with_tie_breakers attr))).
Proof.
  intros attr. apply tpo_cascade, Forall_map, Forall_forall.
  intros a _. apply tpo_attr_cmp_tree.
Qed.

Lemma cmp_by_attr_cascade : forall attr x y, S x -> S y ->
  cmp_by_attr attr x y = cascade (map attr_cmp_tree (with_tie_breakers attr)) x y.
Proof.
  intros attr x y Sx Sy. unfold cmp_by_attr.
  destruct (addr_ordering x y) as [[| |]|] eqn:E; try reflexivity.
  unfold addr_ordering in E.
  destruct (entry_addr x) as [a|] eqn:Ex; [|discriminate].
  destruct (entry_addr y) as [b|] eqn:Ey; [|discriminate].
  injection E as E. apply N.compare_eq in E. subst b.
  assert (x = y) by (eapply H1; eauto). subst y.
  symmetry. apply (tpo_refl S _ (tpo_tree_cascade attr)). exact Sx.
Qed.

(** [cmp_by_attr] is a total preorder on the sibling set, for every attribute:
    std's sorts have no inconsistency to detect. *)
Lemma tpo_cmp_by_attr : forall attr, tpo_on S (cmp_by_attr attr).
Proof.
  intros attr. apply (tpo_ext S _ _ (cmp_by_attr_cascade attr)). apply tpo_tree_cascade.
Qed.

End Siblings.

Lemma treecmp_total : forall (S : tree -> Prop) attr,
  addr_identity S -> loc_addr_uniform S -> consts_uniform S ->
  let c := cmp_by_attr attr in
  (forall x y, S x -> S y -> c y x = CompOpp (c x y)) /\
  (forall x y z, S x -> S y -> S z -> c x y = Lt -> c y z = Lt -> c x z = Lt) /\
  (forall x y z, S x -> S y -> S z -> c x y = Eq -> c x z = c y z) /\
  (forall rev l, Forall S l ->
     sort_by (revc rev c) l = Ok (isort (revc rev c) l) /\
     Permutation l (isort (revc rev c) l) /\ ssorted (revc rev c) (isort (revc rev c) l)).
Proof.
  intros S attr H1 H2 H3. pose proof (tpo_cmp_by_attr S H1 H2 H3 attr) as T.
  split; [exact (proj1 T)|split; [exact (proj1 (proj2 T))|split; [exact (proj2 (proj2 T))|]]].
  intros rev l. exact (sort_by_ok S _ (tpo_rev S _ rev T) l).
Qed.

(** Reversed direction on siblings: the reverse of the ascending result is a
    sorted permutation for the reversed comparator; when no two distinct
    siblings tie it is the only one, so --sortr shows exactly the reverse. *)
Lemma siblings_reverse : forall (S : tree -> Prop) attr,
  addr_identity S -> loc_addr_uniform S -> consts_uniform S ->
  forall l, Forall S l ->
  let c := cmp_by_attr attr in
  Permutation l (rev (isort c l)) /\ ssorted (revc true c) (rev (isort c l)) /\
  ((forall x y, S x -> S y -> c x y = Eq -> x = y) ->
   forall l', Permutation l l' -> ssorted (revc true c) l' -> l' = rev (isort c l)).
Proof.
  intros S attr H1 H2 H3 l Hl c. pose proof (tpo_cmp_by_attr S H1 H2 H3 attr) as T.
  split; [|split].
  - eapply perm_trans; [apply isort_perm|apply Permutation_rev].
  - apply (ssorted_rev S c T); [apply isort_Forall; exact Hl|apply (isort_sorted S c T); exact Hl].
  - intros Strict l'. exact (rev_isort_unique S c T Strict l l' Hl).
Qed.

(** The last two conditions cannot simply be dropped: without [loc_addr_uniform]
    two groups and an address-less parent at one location form a cycle. *)
Definition w_loc : loc := ([102], (1, 1)).
Definition w_a : tree := Parent [97] (Some (5, [97], w_loc)) [].
Definition w_b : tree := Parent [99] (Some (3, [99], w_loc)) [].
Definition w_c : tree := Parent [98] None [Leaf 9 [120] None w_loc None].

Lemma loc_addr_uniform_needed :
  cmp_by_attr SLocation w_a w_c = Lt /\ cmp_by_attr SLocation w_c w_b = Lt /\
  cmp_by_attr SLocation w_a w_b = Gt.
Proof. vm_compute. repeat split. Qed.

(** ... and without [consts_uniform] a plain benchmark named "-1x" beside the
    constants -2 and -1 of a generic benchmark forms a cycle by name. *)
Definition w_m2 : tree := Leaf 1 [45; 50] (Some (0, (-2)%Z)) w_loc None.
Definition w_m1 : tree := Leaf 2 [45; 49] (Some (0, (-1)%Z)) w_loc None.
Definition w_x : tree := Leaf 3 [45; 49; 120] None w_loc None.

Lemma consts_uniform_needed :
  cmp_by_attr SName w_m2 w_m1 = Lt /\ cmp_by_attr SName w_m1 w_x = Lt /\
  cmp_by_attr SName w_x w_m2 = Lt.
Proof. vm_compute. repeat split. Qed.

(** The hypotheses are satisfiable by a non-trivial sibling set: two constants
    of one generic benchmark (same location, different addresses). *)
Example treecmp_hyps_satisfiable :
  let S := fun t => In t [w_m2; w_m1] in
  addr_identity S /\ loc_addr_uniform S /\ consts_uniform S.
Proof.
  split; [|split].
  - intros x y a [<-|[<-|[]]] [<-|[<-|[]]]; simpl; intros E1 E2; congruence.
  - intros x y [<-|[<-|[]]] [<-|[<-|[]]] _; simpl; split; discriminate.
  - intros x y [<-|[<-|[]]] [<-|[<-|[]]]; simpl; reflexivity.
Qed.

(** [tree_perm a b]: [b] is [a] with the children of every node and the
    arguments of every leaf permuted — same entries under the same parents. *)
Inductive tree_perm : tree -> tree -> Prop :=
| TP_leaf_none : forall a n c l, tree_perm (Leaf a n c l None) (Leaf a n c l None)
| TP_leaf_args : forall a n c l x y, Permutation x y ->
    tree_perm (Leaf a n c l (Some x)) (Leaf a n c l (Some y))
| TP_parent : forall raw g ch mid ch', Permutation ch mid -> Forall2 tree_perm mid ch' ->
    tree_perm (Parent raw g ch) (Parent raw g ch').

Lemma bind_ok {A B} (r : res A) (k : A -> res B) y :
  bind r k = Ok y -> exists x, r = Ok x /\ k x = Ok y.
Proof. destruct r as [x|p]; [eauto|discriminate]. Qed.

(** The loop of [sort_node] over the children: what holds of every step holds
    pointwise of the result. *)
Lemma sort_children_F2 {A B} (f : A -> res B) (R : A -> B -> Prop) :
  (forall a b, f a = Ok b -> R a b) -> forall l l',
  (fix go (l : list A) : res (list B) :=
     match l with
     | [] => Ok []
     | c :: r => do c' <- f c; do r' <- go r; Ok (c' :: r')
     end) l = Ok l' ->
  Forall2 R l l'.
Proof.
  intros HR. induction l as [|x r IH]; intros l' G.
  - injection G as <-. constructor.
  - apply bind_ok in G. destruct G as (x' & Ex & G).
    apply bind_ok in G. destruct G as (r' & Er & G).
    injection G as <-. constructor; [apply HR; exact Ex|apply IH; exact Er].
Qed.

Section SortPerm.
Variable V : Type.
Variable vcmp : V -> V -> comparison.
Variable fparse : bytes -> option V.

Lemma sort_node_perm : forall fuel attr rev t t',
  sort_node V vcmp fparse fuel attr rev t = Ok t' -> tree_perm t t'.
Proof.
  induction fuel as [|f IH]; intros attr rev t t' H; [discriminate|].
  destruct t as [a n c l [args|]|raw g ch]; cbn [TreeCmp.sort_node] in H.
  - apply bind_ok in H. destruct H as (perm & E & H). injection H as <-.
    apply TP_leaf_args. apply sort_by_perm, (Permutation_map snd) in E.
    unfold indexed in E. rewrite index_from_map_snd in E. exact E.
  - injection H as <-. apply TP_leaf_none.
  - apply bind_ok in H. destruct H as (sorted & E & H).
    apply bind_ok in H. destruct H as (ch' & G & H). injection H as <-.
    apply (TP_parent raw g ch sorted ch' (sort_by_perm _ _ _ E)).
    exact (sort_children_F2 _ _ (IH attr rev) sorted ch' G).
Qed.

(** Whenever the sort of a forest returns, the result is the input with
    siblings and arguments permuted: nothing lost, duplicated or re-parented. *)
Lemma sort_forest_perm : forall attr rev ts ts',
  sort_forest V vcmp fparse attr rev ts = Ok ts' ->
  tree_perm (Parent [] None ts) (Parent [] None ts').
Proof.
  intros attr rev ts ts' H. unfold sort_forest in H.
  destruct (sort_node V vcmp fparse _ attr rev (Parent [] None ts)) as [t|p] eqn:E; [|discriminate].
  apply sort_node_perm in E. inversion E; subst. injection H as <-.
  econstructor; eauto.
Qed.

End SortPerm.
