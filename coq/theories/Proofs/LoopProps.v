(** Model/Loop.v: the statements of C03, C04 and C19,
    read off [bench_loop_spec] (Proofs/Loop.v). *)

From DivanV Require Import Base.Res Generated.Consts Model.Loop Proofs.Loop Proofs.ListFacts.
Local Open Scope N_scope.

Lemma least_unique (P : nat -> bool) k r :
  (forall j, (j < k)%nat -> P j = true) -> P k = false ->
  (forall j, (j < r)%nat -> P j = true) -> P r = false -> k = r.
Proof.
  intros Hk Hk0 Hr Hr0.
  destruct (Nat.lt_trichotomy k r) as [H|[H|H]]; [|exact H|].
  - rewrite (Hr k H) in Hk0. discriminate.
  - rewrite (Hk r H) in Hr0. discriminate.
Qed.

Lemma ends_where_rule_stops c init hist out r :
  c_test c = false -> zero_case c = false ->
  bench_loop c init hist = Ok out ->
  (r <= length hist)%nat ->
  (forall j, (j < r)%nat -> continue_after c init hist j = true) ->
  continue_after c init hist r = false ->
  out_done out = true /\ out_state out = spec_state c init (firstn r hist).
Proof.
  intros Ht Hz H Hr Hlt Hstop.
  destruct (bench_loop_spec c init hist out Ht Hz H) as [Hk [Hst [Hklt Hend]]].
  destruct (out_done out).
  - split; [reflexivity|].
    rewrite (least_unique (continue_after c init hist) _ r Hklt Hend Hlt Hstop) in Hst. exact Hst.
  - (* starved: every round of the history was run, so [r] was passed or is the end *)
    destruct Hend as [Hk2 Hc]. rewrite <- Hk2 in Hr. apply Nat.lt_eq_cases in Hr.
    destruct Hr as [Hr|Hr]; [rewrite (Hklt r Hr) in Hstop|rewrite Hr, Hc in Hstop]; discriminate.
Qed.

Definition uniform_p (t : nat) (hist : list round_obs) : Prop := forall o, In o hist -> length o = t.

Lemma uniform_firstn t hist k : uniform_p t hist -> uniform_p t (firstn k hist).
Proof. intros H o Ho. apply H. rewrite <- (firstn_skipn k hist). apply in_or_app. left. exact Ho. Qed.

Lemma uniform_skipn t hist k : uniform_p t hist -> uniform_p t (skipn k hist).
Proof. intros H o Ho. apply H. rewrite <- (firstn_skipn k hist). apply in_or_app. right. exact Ho. Qed.

Lemma concat_len_uniform t (l : list round_obs) : uniform_p t l -> length (concat l) = (t * length l)%nat.
Proof.
  induction l as [|o l IH]; intros H; cbn [concat length]; [apply mult_n_O|].
  rewrite app_length, IH by (intros x Hx; apply H; right; exact Hx).
  rewrite (H o) by (left; reflexivity). rewrite Nat.mul_succ_r. apply Nat.add_comm.
Qed.

Lemma total_len_uniform t l : uniform_p t l -> total_len l = N.of_nat t * N.of_nat (length l).
Proof. intros H. rewrite total_len_concat, (concat_len_uniform t l H). apply Nat2N.inj_mul. Qed.

Lemma ceil_div_lt n t j : 0 < t -> (j < ceil_div n t <-> t * j < n).
Proof.
  intros Ht. unfold ceil_div. split; intros H.
  - destruct (N.lt_ge_cases (t * j) n) as [Hlt|Hge]; [exact Hlt|exfalso].
    assert ((n + t - 1) / t < j + 1) by (apply N.div_lt_upper_bound; lia). lia.
  - apply N.le_succ_l, N.div_le_lower_bound; lia.
Qed.

Lemma ceil_div_ge n t : 0 < t -> n <= t * ceil_div n t.
Proof. intros Ht. apply N.le_ngt. intros H. apply (ceil_div_lt n t _ Ht) in H. exact (N.lt_irrefl _ H). Qed.

Lemma ceil_div_pos n t : 0 < t -> n <> 0 -> 0 < ceil_div n t.
Proof. intros Ht Hn. apply (ceil_div_lt n t 0 Ht). rewrite N.mul_0_r. apply N.neq_0_lt_0, Hn. Qed.

Lemma lt_to_nat a b : N.of_nat a < b <-> (a < N.to_nat b)%nat.
Proof. lia. Qed.

Lemma le_to_nat a b : b <= N.of_nat a <-> (N.to_nat b <= a)%nat.
Proof. lia. Qed.

Lemma sub_lt_add j j0 r : (0 < r -> j < j0 + r -> j - j0 < r)%nat.
Proof. lia. Qed.

Definition counted_after (c : cfg) (hist : list round_obs) (k : nat) : N := counted_of c (firstn k hist).

Lemma continue_after_spec c init hist k :
  continue_after c init hist k = true <->
  elapsed_after c init hist k < c_max c /\
  (counted_after c hist k < sample_count_of c \/ elapsed_after c init hist k < c_min c).
Proof.
  unfold continue_after, continue_of, counted_after, elapsed_after.
  rewrite Bool.andb_true_iff, Bool.orb_true_iff, !N.ltb_lt. reflexivity.
Qed.

(** The round from which the samples count against [sample_count] (the first
    one for an explicit size, the first passing one when tuned).  From there
    on every round of [t] threads brings [t] samples, so that [ceil(n/t)] more
    rounds are wanted. *)
Definition start_of (c : cfg) (hist : list round_obs) : option nat :=
  match c_size c with Some _ => Some O | None => first_pass c hist end.

Lemma kept_of_start c pre j0 : c_test c = false -> start_of c pre = Some j0 -> kept_of c pre = skipn j0 pre.
Proof.
  unfold start_of. intros Ht H. destruct (c_size c) as [s|] eqn:Es.
  - injection H as <-. exact (kept_of_explicit c pre s Ht Es).
  - exact (kept_of_passed c pre j0 Ht Es H).
Qed.

Lemma start_of_firstn c hist j0 m : start_of c hist = Some j0 -> (j0 < m)%nat \/ c_size c <> None ->
  start_of c (firstn m hist) = Some j0.
Proof.
  unfold start_of. intros H Hm. destruct (c_size c); [exact H|]. rewrite first_pass_firstn, H.
  destruct (Nat.ltb_spec j0 m) as [_|Hge]; [reflexivity|].
  destruct Hm as [Hm|Hm]; [destruct (Nat.lt_irrefl _ (Nat.lt_le_trans _ _ _ Hm Hge))|contradiction].
Qed.

Lemma samples_uniform c t pre j0 : c_test c = false -> uniform_p t pre -> start_of c pre = Some j0 ->
  length (st_samples (store_of c pre)) = (t * (length pre - j0))%nat.
Proof.
  intros Ht Hu Hs. rewrite store_of_samples_len, (kept_of_start c pre j0 Ht Hs).
  rewrite (concat_len_uniform t) by (apply uniform_skipn, Hu). rewrite skipn_length. reflexivity.
Qed.

Lemma counted_uniform c t hist j0 j :
  c_test c = false -> uniform_p t hist -> start_of c hist = Some j0 -> (j <= length hist)%nat ->
  counted_after c hist j = N.of_nat t * N.of_nat (j - j0).
Proof.
  intros Ht Hu Hs Hj. unfold counted_after, counted_of, start_of in *. rewrite (tuned_bench c Ht).
  assert (Hlen : forall i, total_len (skipn i (firstn j hist)) = N.of_nat t * N.of_nat (j - i)).
  { intros i. rewrite (total_len_uniform t) by (apply uniform_skipn, uniform_firstn, Hu).
    rewrite skipn_length, (firstn_length_le hist Hj). reflexivity. }
  destruct (c_size c).
  - injection Hs as <-. apply (Hlen O).
  - rewrite first_pass_firstn, Hs. destruct (Nat.ltb_spec j0 j) as [_|Hge]; [apply Hlen|].
    apply Nat.sub_0_le in Hge. rewrite Hge. apply eq_sym, N.mul_0_r.
Qed.

Section Uniform.
Variables (c : cfg) (t : nat) (init : N) (hist : list round_obs) (j0 : nat).
Hypotheses (Ht : c_test c = false) (Htpos : (0 < t)%nat) (Hu : uniform_p t hist) (Hs : start_of c hist = Some j0).
Let r := N.to_nat (ceil_div (sample_count_of c) (N.of_nat t)).

Lemma threads_pos : 0 < N.of_nat t.
Proof. apply (lt_to_nat 0). rewrite Nat2N.id. exact Htpos. Qed.

Lemma rounds_wanted_pos : sample_count_of c <> 0 -> (0 < r)%nat.
Proof. intros Hn. apply (lt_to_nat 0), ceil_div_pos; [exact threads_pos|exact Hn]. Qed.

Lemma continue_uniform j : (j <= length hist)%nat ->
  continue_after c init hist j = true <->
  elapsed_after c init hist j < c_max c /\ ((j - j0 < r)%nat \/ elapsed_after c init hist j < c_min c).
Proof.
  intros Hj. rewrite continue_after_spec, (counted_uniform c t hist j0 j Ht Hu Hs Hj).
  rewrite <- (ceil_div_lt (sample_count_of c) (N.of_nat t)), lt_to_nat; [reflexivity|exact threads_pos].
Qed.

(** No limit binds: the run ends after exactly [j0 + r] rounds, [r] of which count. *)
Lemma uniform_least out : has_samples c = true ->
  (j0 + r <= length hist)%nat ->
  (forall j, (j < j0 + r)%nat -> elapsed_after c init hist j < c_max c) ->
  c_min c <= elapsed_after c init hist (j0 + r) ->
  bench_loop c init hist = Ok out ->
  let pre := firstn (j0 + r) hist in
  out_done out = true /\ out_state out = spec_state c init pre /\
  (0 < r)%nat /\ length pre = (j0 + r)%nat /\ start_of c pre = Some j0 /\
  length (st_samples (s_store (out_state out))) = (t * r)%nat.
Proof.
  intros Hh Hr Hmax Hmin H.
  pose proof (rounds_wanted_pos (has_samples_count c Hh)) as Hr1.
  assert (Hz : zero_case c = false).
  { apply zero_case_false. split; [|exact Hh]. intros Hm. specialize (Hmax O). rewrite Hm in Hmax.
    apply (N.nlt_0_r _ (Hmax (Nat.lt_lt_add_l _ _ _ Hr1))). }
  assert (Hst : start_of c (firstn (j0 + r) hist) = Some j0)
    by (apply start_of_firstn; [exact Hs|left; apply Nat.lt_add_pos_r, Hr1]).
  assert (Hlen : length (firstn (j0 + r) hist) = (j0 + r)%nat) by (apply firstn_length_le, Hr).
  cut (out_done out = true /\ out_state out = spec_state c init (firstn (j0 + r) hist)).
  { intros [Hd Ho]. repeat split; try assumption. rewrite Ho. cbn [spec_state s_store].
    rewrite (samples_uniform c t _ j0 Ht (uniform_firstn t hist _ Hu) Hst), Hlen.
    rewrite (Nat.add_sub_eq_l _ j0 r eq_refl). reflexivity. }
  apply (ends_where_rule_stops c init hist out _ Ht Hz H Hr).
  - intros j Hj. apply continue_uniform; [exact (Nat.lt_le_incl _ _ (Nat.lt_le_trans _ _ _ Hj Hr))|].
    split; [exact (Hmax j Hj)|]. left. exact (sub_lt_add j j0 r Hr1 Hj).
  - apply Bool.not_true_is_false. intros Hc. apply continue_uniform in Hc; [|exact Hr].
    rewrite (Nat.add_sub_eq_l _ j0 r eq_refl) in Hc. destruct Hc as [_ [Hc|Hc]].
    + exact (Nat.lt_irrefl _ Hc).
    + exact (N.lt_irrefl _ (N.lt_le_trans _ _ _ Hc Hmin)).
Qed.

(** All of [hist] was run and then the loop returned: with fewer than
    [j0 + r] rounds only the ceiling can have stopped it, and once [j0 + r]
    rounds are done it goes on for the floor only. *)
Lemma uniform_stop : sample_count_of c <> 0 ->
  (forall j, (j < length hist)%nat -> continue_after c init hist j = true) ->
  continue_after c init hist (length hist) = false ->
  ((length hist < j0 + r)%nat -> c_max c <= elapsed_after c init hist (length hist)) /\
  ((j0 + r <= length hist)%nat ->
   c_min c <= elapsed_after c init hist (j0 + r) \/ c_max c <= elapsed_after c init hist (j0 + r) ->
   length hist = (j0 + r)%nat).
Proof.
  intros Hn Hlt Hend. pose proof (rounds_wanted_pos Hn) as Hr1.
  apply Bool.not_true_iff_false in Hend. rewrite continue_uniform in Hend by reflexivity. split.
  - intros Hk. apply N.le_ngt. intros Hmax. apply Hend. split; [exact Hmax|]. left. exact (sub_lt_add _ j0 r Hr1 Hk).
  - intros Hk Hb. apply Nat.lt_eq_cases in Hk. destruct Hk as [Hk|Hk]; [exfalso|symmetry; exact Hk].
    pose proof (Hlt _ Hk) as Hc. apply continue_uniform in Hc; [|apply Nat.lt_le_incl, Hk].
    rewrite (Nat.add_sub_eq_l _ j0 r eq_refl) in Hc. destruct Hc as [Hmax [Hc|Hmin]].
    + exact (Nat.lt_irrefl _ Hc).
    + destruct Hb as [Hb|Hb]; [exact (N.lt_irrefl _ (N.lt_le_trans _ _ _ Hmin Hb))|exact (N.lt_irrefl _ (N.lt_le_trans _ _ _ Hmax Hb))].
Qed.

End Uniform.

Lemma sizes_of_explicit c hist s k : c_test c = false -> c_size c = Some s ->
  sizes_of c hist k = repeat s k.
Proof.
  intros Ht Hs. unfold sizes_of. rewrite (map_all_const _ s), seq_length; [reflexivity|].
  intros i _. unfold size_of_round. rewrite Ht, Hs. reflexivity.
Qed.

Lemma explicit_sizes c init pre s : c_test c = false -> c_size c = Some s ->
  let st := spec_state c init pre in
  s_sizes st = repeat s (length pre) /\ calls_per_thread st = s * N.of_nat (length pre) /\
  s_size st = (if (length pre =? 0)%nat then 0 else s).
Proof.
  intros Ht Hs. unfold calls_per_thread. cbn [spec_state s_sizes s_size].
  rewrite (sizes_of_explicit c pre s _ Ht Hs), sum_repeat. repeat split.
  destruct pre as [|o pre]; [reflexivity|].
  rewrite (last_size_kept c _ Ht) by apply Nat.lt_0_succ. unfold kept_size. rewrite Hs. reflexivity.
Qed.

(** C03.  Budgets not binding: the ceiling is not reached before any of the first
    R = ceil(n/T) rounds and the floor is reached after them. *)
Theorem exact_counts c init hist out s t :
  c_test c = false -> zero_case c = false -> c_size c = Some s ->
  (0 < t)%nat -> uniform_p t hist ->
  let n := sample_count_of c in
  let r := N.to_nat (ceil_div n (N.of_nat t)) in
  (r <= length hist)%nat ->
  (forall j, (j < r)%nat -> elapsed_after c init hist j < c_max c) ->
  c_min c <= elapsed_after c init hist r ->
  bench_loop c init hist = Ok out ->
  out_done out = true /\
  rounds_of (out_state out) = r /\
  length (st_samples (s_store (out_state out))) = (t * r)%nat /\
  s_sizes (out_state out) = repeat s r /\
  calls_per_thread (out_state out) = s * N.of_nat r /\
  s_size (out_state out) = (if (r =? 0)%nat then 0 else s).
Proof.
  intros Ht Hz Hs Htpos Hu n r Hr Hmax Hmin H.
  assert (Hst : start_of c hist = Some O) by (unfold start_of; rewrite Hs; reflexivity).
  destruct (uniform_least c t init hist O Ht Htpos Hu Hst out (proj2 (proj1 (zero_case_false c) Hz)) Hr Hmax Hmin H)
    as [Hd [Ho [_ [Hlen [_ Hsam]]]]].
  change (0 + _)%nat with r in Ho, Hlen, Hsam.
  destruct (explicit_sizes c init (firstn r hist) s Ht Hs) as [Hsz [Hcalls Hsize]].
  rewrite Ho, rounds_spec_state, Hsz, Hcalls, Hsize, Hlen. rewrite Ho in Hsam. repeat split; assumption.
Qed.

(** The premises of [exact_counts] can be met: 2 threads, 5 samples of size 3,
    three rounds of two raw samples each, no budget. *)
Definition ex_raw (s e : N) : raw := {| r_start := s; r_end := e; r_alloc := ai_zero; r_ctotal := qconst 7 |}.
Definition ex_cfg : cfg :=
  {| c_test := false; c_count := Some 5; c_size := Some 3; c_min := 0; c_max := u128_max; c_skip := false;
     c_freq := 1000000000000; c_prec := 1; c_oh := {| oh_loop := 0; oh_alloc := 0; oh_dealloc := 0; oh_realloc := 0 |};
     c_input_counts := qconst false |}.
Definition ex_hist : list round_obs :=
  [[ex_raw 10 310; ex_raw 5 300]; [ex_raw 400 700; ex_raw 390 720]; [ex_raw 800 1100; ex_raw 790 1090]].

Example exact_counts_example :
  exists out, bench_loop ex_cfg 0 ex_hist = Ok out /\ out_done out = true /\
    rounds_of (out_state out) = 3%nat /\ length (st_samples (s_store (out_state out))) = 6%nat /\
    calls_per_thread (out_state out) = 9.
Proof. eexists. split; [vm_compute; reflexivity|]. vm_compute. repeat split. Qed.

Lemma bench_loop_test c init hist : c_test c = true -> zero_case c = false ->
  bench_loop c init hist =
  match hist with
  | [] => Ok (Starved (init_state c))
  | [] :: _ => Panic UnwrapNone
  | _ :: _ => Ok (Done (with_round (init_state c) 1))
  end.
Proof.
  intros Ht Hz. rewrite (bench_loop_run c init hist Hz).
  assert (Hlc : loop_cond c (init_state c) = true).
  { unfold loop_cond, init_state, initial_mode, max_reached, max_time_cmp_is_ge. rewrite Ht. cbn [s_elapsed s_rem is_collect].
    apply zero_case_false in Hz. destruct (N.leb_spec (c_max c) 0) as [Hm|_]; [|reflexivity].
    apply N.le_0_r in Hm. destruct Hz as [Hz _]. contradiction. }
  destruct hist as [|obs rest]; cbn [run]; rewrite Hlc; [reflexivity|]. rewrite Ht.
  unfold init_state at 2, initial_mode. rewrite Ht. reflexivity.
Qed.

Lemma rounds_le c init hist out : bench_loop c init hist = Ok out -> (rounds_of (out_state out) <= length hist)%nat.
Proof.
  intros H. destruct (zero_case c) eqn:Hz; [|destruct (c_test c) eqn:Ht].
  - rewrite (bench_loop_zero c init hist Hz) in H. injection H as <-. apply Nat.le_0_l.
  - rewrite (bench_loop_test c init hist Ht Hz) in H.
    destruct hist as [|[|r0 o0] rest]; [|discriminate|]; injection H as <-; [apply Nat.le_0_l|apply le_n_S, Nat.le_0_l].
  - apply (bench_loop_spec c init hist out Ht Hz H).
Qed.

(** C03, test mode: one round of size 1 on every thread, nothing stored. *)
Theorem test_mode_once c init obs rest :
  c_test c = true -> zero_case c = false -> obs <> [] ->
  exists st, bench_loop c init (obs :: rest) = Ok (Done st) /\
    s_sizes st = [1] /\ calls_per_thread st = 1 /\ s_size st = 1 /\
    s_store st = store_empty /\ stat_sample_count st = 0 /\ stat_iter_count st = Ok 0.
Proof.
  intros Ht Hz Ho. rewrite (bench_loop_test c init _ Ht Hz).
  destruct obs; [contradiction|]. eexists. split; [reflexivity|].
  unfold init_state, initial_mode. rewrite Ht. repeat split; reflexivity.
Qed.

(** C03.  n = 0, s = 0 or max_time = 0: nothing runs, in both modes. *)
Theorem zero_runs_nothing c init hist :
  c_count c = Some 0 \/ c_size c = Some 0 \/ c_max c = 0 ->
  bench_loop c init hist = Ok (Done (init_state c)) /\
  rounds_of (init_state c) = 0%nat /\ calls_per_thread (init_state c) = 0 /\
  s_store (init_state c) = store_empty /\
  stat_sample_count (init_state c) = 0 /\ stat_iter_count (init_state c) = Ok 0.
Proof.
  intros H. split; [|repeat split; reflexivity].
  apply bench_loop_zero. unfold zero_case, has_samples, opt_is.
  destruct H as [H|[H|H]]; rewrite H; cbn [N.eqb negb andb]; rewrite ?Bool.andb_false_r; auto using Bool.orb_true_r.
Qed.

Lemma stat_sample_count_small st : N.of_nat (length (st_samples (s_store st))) < 2 ^ 32 ->
  stat_sample_count st = N.of_nat (length (st_samples (s_store st))).
Proof. apply N.mod_small. Qed.

Lemma stat_iter_count_small st : N.of_nat (length (st_samples (s_store st))) < 2 ^ 32 ->
  stat_iter_count st = checked_mul 64 (s_size st) (N.of_nat (length (st_samples (s_store st)))).
Proof.
  intros Hm. unfold stat_iter_count. rewrite N.mod_small; [reflexivity|].
  apply (N.lt_trans _ _ _ Hm). reflexivity.
Qed.

(** C03.  The reported figures: samples = recorded samples, iters = that times the
    sample size in force (the size of the rounds whose samples are kept). *)
Theorem reported_figures c init hist out :
  c_test c = false -> zero_case c = false ->
  bench_loop c init hist = Ok out ->
  let st := out_state out in
  let m := N.of_nat (length (st_samples (s_store st))) in
  m < 2 ^ 32 -> s_size st * m < 2 ^ 64 ->
  stat_sample_count st = m /\ stat_iter_count st = Ok (s_size st * m) /\
  (forall s, c_size c = Some s -> (0 < rounds_of st)%nat -> s_size st = s).
Proof.
  intros Ht _ H st m Hm Hov.
  split; [exact (stat_sample_count_small st Hm)|split].
  - rewrite (stat_iter_count_small st Hm). unfold checked_mul. fold m.
    apply N.ltb_lt in Hov. rewrite Hov. reflexivity.
  - intros s Hs Hr.
    destruct (bench_loop_state c init hist out Ht H) as [_ Hst]. fold st in Hst, Hr.
    rewrite Hst in *. rewrite rounds_spec_state in Hr. cbn [spec_state s_size].
    rewrite (last_size_kept c _ Ht Hr). unfold kept_size. rewrite Hs. reflexivity.
Qed.

(** C04.  The number of rounds run is the least k at which the rule says stop — for
    every history, every (min, max, skip) and every n and s other than 0, tuned or
    not; max = 0 included.  (With n = 0 or s = 0 nothing runs although the rule
    may say continue: [zero_runs_nothing].) *)
Theorem rounds_least c init hist out :
  c_test c = false -> has_samples c = true ->
  bench_loop c init hist = Ok out ->
  let k := rounds_of (out_state out) in
  (k <= length hist)%nat /\
  (forall j, (j < k)%nat -> continue_after c init hist j = true) /\
  (if out_done out then continue_after c init hist k = false
   else k = length hist /\ continue_after c init hist k = true).
Proof.
  intros Ht Hh H. destruct (zero_case c) eqn:Hz.
  - (* only max_time = 0 is left: nothing runs, and the rule says stop at 0 *)
    rewrite (bench_loop_zero c init hist Hz) in H. injection H as <-.
    split; [apply Nat.le_0_l|]. split; [intros j Hj; inversion Hj|].
    unfold zero_case in Hz. rewrite Hh, Bool.orb_false_r in Hz. apply N.eqb_eq in Hz.
    unfold continue_after, continue_of, elapsed_of. cbn [firstn rev map sum_n fold_right out_done].
    rewrite Hz. destruct (c_skip c); reflexivity.
  - destruct (bench_loop_spec c init hist out Ht Hz H) as [Hk [_ Hrule]]. exact (conj Hk Hrule).
Qed.

Example rounds_least_example :
  exists out, bench_loop ex_cfg 0 ex_hist = Ok out /\ c_test ex_cfg = false /\ has_samples ex_cfg = true.
Proof. destruct exact_counts_example as [out [H _]]. exists out. split; [exact H|split; reflexivity]. Qed.

(** C04.  max_time has priority: once the elapsed time is at least max_time after
    some round, no further round is run, whatever the sample count and min_time.
    Conversely the loop does not stop while samples are missing or the floor is
    not reached: that is the second conjunct of [rounds_least]. *)
Theorem max_has_priority c init hist out j :
  c_test c = false -> has_samples c = true ->
  bench_loop c init hist = Ok out ->
  c_max c <= elapsed_after c init hist j ->
  (rounds_of (out_state out) <= j)%nat.
Proof.
  intros Ht Hh H Hm. destruct (rounds_least c init hist out Ht Hh H) as [_ [Hlt _]].
  apply Nat.le_ngt. intros Hgt. apply Hlt, continue_after_spec in Hgt.
  destruct Hgt as [Hgt _]. exact (N.lt_irrefl _ (N.lt_le_trans _ _ _ Hgt Hm)).
Qed.

Theorem elapsed_def c init hist out :
  c_test c = false -> has_samples c = true ->
  bench_loop c init hist = Ok out ->
  s_elapsed (out_state out) = elapsed_after c init hist (rounds_of (out_state out)) /\
  elapsed_after c init hist 0 = 0 /\
  (c_skip c = false -> forall k o, nth_error hist k = Some o ->
     elapsed_after c init hist (S k) = dur_ps (c_freq c) (latest_end o) init) /\
  (c_skip c = true -> forall k,
     elapsed_after c init hist k =
     N.min (sum_n (map (fun o => N.max (slowest_of c o) 1000) (firstn k hist))) (2 ^ 128 - 1)).
Proof.
  intros Ht _ H.
  assert (H0 : elapsed_after c init hist 0 = 0) by (unfold elapsed_after, elapsed_of; destruct (c_skip c); reflexivity).
  split; [|split; [exact H0|split]].
  - destruct (bench_loop_state c init hist out Ht H) as [_ Hst]. rewrite Hst at 1. reflexivity.
  - intros Hs k o Ho. unfold elapsed_after. rewrite (firstn_S_snoc hist k o Ho).
    apply elapsed_of_snoc_noskip. exact Hs.
  - intros Hs k. unfold elapsed_after, elapsed_of. rewrite Hs. reflexivity.
Qed.

Lemma sizes_of_firstn c hist k : (k <= length hist)%nat ->
  sizes_of c (firstn k hist) (length (firstn k hist)) = sizes_of c hist k.
Proof.
  intros Hk. rewrite (firstn_length_le hist Hk).
  rewrite <- (firstn_skipn k hist) at 2. apply eq_sym, sizes_of_app.
  rewrite (firstn_length_le hist Hk). reflexivity.
Qed.

(** C19.  Sizes of successive rounds: 1, 2, 4, ... while no round has passed the
    threshold, then constant. *)
Theorem tune_sequence c init hist out :
  c_test c = false -> c_size c = None -> has_samples c = true -> c_max c <> 0 ->
  bench_loop c init hist = Ok out ->
  let k := rounds_of (out_state out) in
  s_sizes (out_state out) = sizes_of c hist k /\
  (forall i, (i < k)%nat ->
     nth_error (s_sizes (out_state out)) i =
     Some (match first_pass c (firstn i hist) with Some j0 => pow2 j0 | None => pow2 i end)).
Proof.
  intros Ht Hs _ _ H.
  destruct (bench_loop_state c init hist out Ht H) as [Hk Hst].
  cbn zeta. set (k := rounds_of (out_state out)) in *. rewrite Hst. cbn [spec_state s_sizes].
  rewrite (sizes_of_firstn c hist k Hk).
  split; [reflexivity|].
  intros i Hi. unfold sizes_of. rewrite nth_error_map.
  rewrite (nth_error_nth' (seq 0 _) 0%nat) by (rewrite seq_length; exact Hi). rewrite seq_nth by exact Hi.
  cbn [option_map]. unfold size_of_round. rewrite Ht, Hs. reflexivity.
Qed.

(** C19.  Only the rounds from the first passing one on (or, while none has passed,
    only the newest round) have left anything in the sample collection, the
    allocation map and the per-input counts: the store is what recording just
    those rounds into empty collections gives.  All of them have the final size. *)
Theorem discard_earlier c init hist out :
  c_test c = false -> c_size c = None -> has_samples c = true -> c_max c <> 0 ->
  bench_loop c init hist = Ok out ->
  let k := rounds_of (out_state out) in
  let pre := firstn k hist in
  let kept := match first_pass c pre with Some j0 => skipn j0 pre | None => skipn (k - 1) pre end in
  let size := match first_pass c pre with Some j0 => pow2 j0 | None => pow2 (k - 1) end in
  s_store (out_state out) = fold_left (record_one c size) (with_dur c (concat kept)) store_empty /\
  st_samples (s_store (out_state out)) = map (fun r => sample_duration c size r (dur_of c r)) (concat kept) /\
  (k <> 0%nat -> s_size (out_state out) = size).
Proof.
  intros Ht Hs _ _ H.
  destruct (bench_loop_state c init hist out Ht H) as [Hk Hst].
  cbn zeta. set (k := rounds_of (out_state out)) in *. set (pre := firstn k hist) in *.
  assert (Hlen : length pre = k) by (apply firstn_length_le, Hk).
  rewrite Hst. cbn [spec_state s_store s_size].
  assert (Hsize : kept_size c pre = match first_pass c pre with Some j0 => pow2 j0 | None => pow2 (k - 1) end)
    by (unfold kept_size; rewrite Hs, Hlen; reflexivity).
  assert (Hkept : kept_of c pre = match first_pass c pre with Some j0 => skipn j0 pre | None => skipn (k - 1) pre end).
  { unfold kept_of. rewrite (tuned_bench c Ht), Hs. destruct (first_pass c pre); [reflexivity|].
    rewrite last_as_skipn, Hlen. reflexivity. }
  rewrite <- Hsize, <- Hkept. split; [reflexivity|]. split; [apply store_of_samples|].
  intros Hk0. apply last_size_kept; [exact Ht|rewrite Hlen; apply Nat.neq_0_lt_0, Hk0].
Qed.

(** C19.  The round that first passes the threshold counts as the first recorded
    one: with no time limit binding, exactly ceil(n/t) rounds are run from it
    on (itself included) and t*ceil(n/t) samples are reported. *)
Theorem threshold_round_counts c init hist out t j0 :
  c_test c = false -> c_size c = None -> has_samples c = true ->
  (0 < t)%nat -> uniform_p t hist ->
  first_pass c hist = Some j0 ->
  let n := sample_count_of c in
  let r := N.to_nat (ceil_div n (N.of_nat t)) in
  (j0 + r <= length hist)%nat ->
  (forall j, (j < j0 + r)%nat -> elapsed_after c init hist j < c_max c) ->
  c_min c <= elapsed_after c init hist (j0 + r) ->
  bench_loop c init hist = Ok out ->
  out_done out = true /\
  rounds_of (out_state out) = (j0 + r)%nat /\
  length (st_samples (s_store (out_state out))) = (t * r)%nat /\
  s_size (out_state out) = pow2 j0.
Proof.
  intros Ht Hs Hh Htpos Hu Hf n r Hr Hmax Hmin H.
  assert (Hst : start_of c hist = Some j0) by (unfold start_of; rewrite Hs; exact Hf).
  destruct (uniform_least c t init hist j0 Ht Htpos Hu Hst out Hh Hr Hmax Hmin H) as [Hd [Ho [Hr1 [Hlen [Hst2 Hsam]]]]].
  fold n r in Ho, Hr1, Hlen, Hst2, Hsam.
  split; [exact Hd|]. split; [rewrite Ho, rounds_spec_state; exact Hlen|]. split; [exact Hsam|].
  rewrite Ho. cbn [spec_state s_size].
  rewrite (last_size_kept c _ Ht) by (rewrite Hlen; apply Nat.add_pos_r, Hr1).
  unfold kept_size. unfold start_of in Hst2. rewrite Hs in *. rewrite Hst2. reflexivity.
Qed.

(** C19.  max_time also covers the tuning rounds: whether or not any round has
    passed the threshold, no round starts once the elapsed time is at least
    max_time. *)
Theorem max_time_covers_tuning c init hist out :
  c_test c = false -> c_size c = None -> has_samples c = true ->
  bench_loop c init hist = Ok out ->
  (forall j, (j < rounds_of (out_state out))%nat -> elapsed_after c init hist j < c_max c) /\
  (forall j, c_max c <= elapsed_after c init hist j -> (rounds_of (out_state out) <= j)%nat).
Proof.
  intros Ht _ Hh H. split.
  - intros j Hj. destruct (rounds_least c init hist out Ht Hh H) as [_ [Hlt _]].
    apply Hlt, continue_after_spec in Hj. apply Hj.
  - intros j Hj. apply (max_has_priority c init hist out j Ht Hh H Hj).
Qed.

(** A tuned run: sizes 1, 2, 4 (the third round's slowest sample is 404 > 100
    x the precision 4), then two more rounds for n = 5 on 2 threads; max_time cuts
    nothing.  Hypotheses of the C19 theorems are satisfiable. *)
Definition ex_tune_cfg : cfg :=
  {| c_test := false; c_count := Some 5; c_size := None; c_min := 0; c_max := u128_max; c_skip := false;
     c_freq := 1000000000000; c_prec := 4; c_oh := {| oh_loop := 0; oh_alloc := 0; oh_dealloc := 0; oh_realloc := 0 |};
     c_input_counts := {| q_bytes := true; q_chars := false; q_cycles := false; q_items := true |} |}.
Definition ex_tune_hist : list round_obs :=
  [[ex_raw 10 111; ex_raw 5 100]; [ex_raw 200 402; ex_raw 190 380]; [ex_raw 500 904; ex_raw 490 880];
   [ex_raw 1000 1404; ex_raw 990 1390]; [ex_raw 1500 1904; ex_raw 1490 1890]; [ex_raw 2000 2404; ex_raw 1990 2390]].

Example tune_example :
  exists out, bench_loop ex_tune_cfg 0 ex_tune_hist = Ok out /\ out_done out = true /\
    s_sizes (out_state out) = [1; 2; 4; 4; 4] /\ first_pass ex_tune_cfg ex_tune_hist = Some 2%nat /\
    length (st_samples (s_store (out_state out))) = 6%nat /\ s_size (out_state out) = 4.
Proof. eexists. split; [vm_compute; reflexivity|]. vm_compute. repeat split. Qed.

(** C04 without an exact clock (the OS timer): when every round lasts at least
    [d], the ceiling allows at most ceil(max/d) rounds. *)
Theorem rounds_bounded c init hist out d :
  c_test c = false -> has_samples c = true ->
  bench_loop c init hist = Ok out ->
  (forall j, (j <= length hist)%nat -> N.of_nat j * d <= elapsed_after c init hist j) ->
  c04_os_sb (c_max c) d (N.of_nat (rounds_of (out_state out))) = true.
Proof.
  intros Ht Hh H Hd. destruct (rounds_least c init hist out Ht Hh H) as [Hk [Hlt _]].
  unfold c04_os_sb. destruct (rounds_of (out_state out)) as [|k']; [reflexivity|].
  specialize (Hlt k' (Nat.lt_succ_diag_r k')). apply continue_after_spec in Hlt. destruct Hlt as [Hmax _].
  specialize (Hd k' (Nat.lt_le_incl _ _ Hk)).
  rewrite Nat2N.inj_succ, <- N.add_1_r, N.add_sub.
  rewrite (proj2 (N.ltb_lt _ _) (N.le_lt_trans _ _ _ Hd Hmax)). apply Bool.orb_true_r.
Qed.

Example rounds_bounded_example :
  forall j, (j <= length ex_hist)%nat -> N.of_nat j * 300 <= elapsed_after ex_cfg 0 ex_hist j.
Proof. intros j Hj. do 4 (destruct j as [|j]; [vm_compute; discriminate|]). cbn in Hj. lia. Qed.

Example decimal_nanos_example :
  decimal_nanos 0 [0; 0; 0; 4] = 400000 /\ decimal_nanos 1 [5] = 1500000000 /\ decimal_nanos 2 [] = 2000000000 /\
  decimal_nanos 0 [0; 0; 1; 4; 0; 0; 0; 0; 7] = 1400007.
Proof. repeat split; reflexivity. Qed.
