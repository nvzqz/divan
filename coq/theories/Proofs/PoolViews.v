(** Publication (C06): the invariant [InvV] on the release/acquire views, and
    what the caller's view holds at the return of a broadcast. *)

From DivanV Require Import Model.Pool Proofs.Pool Proofs.PoolCalls Proofs.ListFacts.
From Coq Require Import Arith Lia List.
Import ListNotations.
Import PoolM.

Lemma In_vadd x c v : In x (vadd c v) <-> x = c \/ In x v.
Proof.
  unfold vadd. destruct (vmem c v) eqn:E.
  - apply vmem_In in E. split; auto. intros [->|H]; auto.
  - cbn. split; [intros [<-|H]|intros [->|H]]; auto.
Qed.

Lemma In_vunion x a b : In x (vunion a b) <-> In x a \/ In x b.
Proof.
  unfold vunion. induction a as [|h t IH]; cbn.
  - tauto.
  - rewrite In_vadd, IH. split; [intros [->|[H|H]]|intros [[<-|H]|H]]; auto.
Qed.

Definition at_clone_or_dec (s : state) (j b : nat) : Prop :=
  nth_error (ws s) j = Some (WClone b) \/ nth_error (ws s) j = Some (WDec b).

Record InvV (c : cfg) (s : state) : Prop := {
  V_caller : in_broadcast (cst s) = true -> caller_ran (cst s) = true -> In (cur s, 0) (cview s);
  V_worker : forall j b, at_clone_or_dec s j b -> In (b, S j) (nth j (wviews s) []);
  V_loc : is_release (c_dec c) = true -> in_broadcast (cst s) = true ->
          forall j, called s (S j) = true -> (exists b, at_clone_or_dec s j b) \/ In (cur s, S j) (lview s);
  V_ret : is_release (c_dec c) = true -> is_acquire (c_load c) = true ->
          Forall (fun r => forall i, i <= r_n r -> In (r_b r, i) (r_view r)) (returned s)
}.

Lemma invv_init c scr : InvV c (init scr).
Proof.
  constructor; cbn; try discriminate.
  - intros j b [H|H]; destruct j; discriminate.
  - intros; constructor.
Qed.

(** Worker [S j] moves from [w] to [w'] (possibly together with the caller, at a
    rendezvous); the other workers and their views do not change. *)
Lemma invv_worker c s s' j w w' :
  InvV c s -> nth_error (ws s) j = Some w ->
  ws s' = set_nth j w' (ws s) -> cur s' = cur s -> cview s' = cview s -> returned s' = returned s ->
  in_broadcast (cst s') = in_broadcast (cst s) ->
  (caller_ran (cst s') = true -> caller_ran (cst s) = true) ->
  (forall j', j' <> j -> nth j' (wviews s') [] = nth j' (wviews s) []) ->
  (forall x, In x (lview s) -> In x (lview s')) ->
  (forall j', j' <> j -> called s' (S j') = true -> called s (S j') = true) ->
  (forall b, w' = WClone b \/ w' = WDec b -> In (b, S j) (nth j (wviews s') [])) ->
  (is_release (c_dec c) = true -> in_broadcast (cst s) = true -> called s' (S j) = true ->
   (exists b, w' = WClone b \/ w' = WDec b) \/ In (cur s, S j) (lview s')) ->
  InvV c s'.
Proof.
  intros V Hj Hws Hu Hcv Hr Hb Hran Hwv Hlv Hcal Hown Hloc.
  pose proof (nth_error_lt _ _ _ Hj) as Lt.
  constructor.
  - intros B Rn. rewrite Hu, Hcv. rewrite Hb in B. apply (V_caller _ _ V); auto.
  - intros j' b H. unfold at_clone_or_dec in H. rewrite Hws in H.
    destruct (Nat.eq_dec j j') as [<-|N].
    + rewrite nth_error_set_nth_eq in H by auto. apply Hown. destruct H as [H|H]; injection H as ->; auto.
    + rewrite nth_error_set_nth_neq in H by auto. rewrite Hwv by auto. now apply (V_worker _ _ V).
  - intros Rl B j' Cl. rewrite Hb in B. rewrite Hu.
    destruct (Nat.eq_dec j j') as [<-|N].
    + destruct (Hloc Rl B Cl) as [(b & Hb')|H]; [left|right; auto].
      exists b. unfold at_clone_or_dec. rewrite Hws, nth_error_set_nth_eq by auto. destruct Hb' as [->| ->]; auto.
    + assert (Cl0 : called s (S j') = true) by (apply Hcal; auto).
      destruct (V_loc _ _ V Rl B j' Cl0) as [(b & Hb')|H]; [left|right; auto].
      exists b. unfold at_clone_or_dec in *. now rewrite Hws, nth_error_set_nth_neq by auto.
  - rewrite Hr. apply V.
Qed.

Lemma called_other s s' j w' j' :
  ws s' = set_nth j w' (ws s) -> cst s' = cst s -> cur s' = cur s -> j' <> j ->
  called s' (S j') = called s (S j').
Proof. intros Hws Hc Hu N. cbn. now rewrite Hc, Hu, Hws, nth_error_set_nth_neq by auto. Qed.

Lemma invv_worker_stay c s s' j w w' :
  InvV c s -> nth_error (ws s) j = Some w ->
  ws s' = set_nth j w' (ws s) -> cst s' = cst s -> cur s' = cur s -> cview s' = cview s -> returned s' = returned s ->
  (forall j', j' <> j -> nth j' (wviews s') [] = nth j' (wviews s) []) ->
  (forall x, In x (lview s) -> In x (lview s')) ->
  (forall b, w' = WClone b \/ w' = WDec b -> In (b, S j) (nth j (wviews s') [])) ->
  (is_release (c_dec c) = true -> in_broadcast (cst s) = true -> called s' (S j) = true ->
   (exists b, w' = WClone b \/ w' = WDec b) \/ In (cur s, S j) (lview s')) ->
  InvV c s'.
Proof.
  intros V Hj Hws Hc Hu Hcv Hr Hwv Hlv Hown Hloc.
  apply (invv_worker c s s' j w w'); auto; try now rewrite Hc.
  intros j' N. now rewrite (called_other s s' j w' j' Hws Hc Hu N).
Qed.

Lemma called_S_ext s s' :
  sent (cst s') = sent (cst s) -> cur s' = cur s -> ws s' = ws s ->
  forall j, called s' (S j) = called s (S j).
Proof. intros H1 H2 H3 j. cbn. now rewrite H1, H2, H3. Qed.

Lemma invv_caller c s s' :
  InvV c s -> ws s' = ws s -> wviews s' = wviews s -> cur s' = cur s -> lview s' = lview s ->
  returned s' = returned s ->
  (forall x, In x (cview s) -> In x (cview s')) ->
  in_broadcast (cst s') = in_broadcast (cst s) -> sent (cst s') = sent (cst s) ->
  (caller_ran (cst s') = true -> caller_ran (cst s) = true \/ In (cur s, 0) (cview s')) ->
  InvV c s'.
Proof.
  intros V Hw Hwv Hu Hl Hr Hcv Hb Hs Hran.
  constructor.
  - intros B Rn. rewrite Hu. destruct (Hran Rn) as [H|H]; auto.
    apply Hcv. rewrite Hb in B. now apply (V_caller _ _ V).
  - intros j b H. unfold at_clone_or_dec in H. rewrite Hw in H. rewrite Hwv. now apply (V_worker _ _ V).
  - intros Rl B j Cl. rewrite Hb in B. rewrite (called_S_ext s s' Hs Hu Hw) in Cl. rewrite Hu, Hl.
    unfold at_clone_or_dec. rewrite Hw. now apply (V_loc _ _ V).
  - rewrite Hr. apply V.
Qed.

Lemma worker_view_appended c s k k' j b : Inv s -> InvV c s ->
  nth_error (ws s ++ repeat WIdle k) j = Some (WClone b) \/ nth_error (ws s ++ repeat WIdle k) j = Some (WDec b) ->
  In (b, S j) (nth j (wviews s ++ repeat [] k') []).
Proof.
  intros I V H.
  assert (Lt : j < length (ws s)).
  { destruct (Nat.lt_ge_cases j (length (ws s))) as [L|L]; auto. exfalso.
    rewrite !nth_error_app2 in H by auto.
    destruct H as [H|H]; apply nth_error_In in H; apply repeat_spec in H; discriminate. }
  rewrite !nth_error_app1 in H by auto. rewrite app_nth1 by (rewrite (I_wv s I); auto).
  now apply (V_worker _ _ V).
Qed.

Lemma invv_begin c s n rest : Inv s -> InvV c s -> InvV c (st_begin s n rest).
Proof.
  intros I V. constructor; unfold st_begin; cbn.
  - intros _ H. destruct (Nat.eqb n 0); discriminate.
  - intros j b H. exact (worker_view_appended c s _ _ j b I V H).
  - intros _ _ j Cl. change (called (st_begin s n rest) (S j) = true) in Cl. now rewrite called_begin in Cl.
  - apply V.
Qed.

Lemma invv_send c s j n :
  InvV c s -> cst s = CSend (S j) n -> nth_error (ws s) j = Some WIdle ->
  InvV c (st_send s (S j) n).
Proof.
  intros V Hc Hj.
  pose proof (called_send s j n Hc Hj) as Cs.
  apply (invv_worker c s _ j WIdle (WRun (cur s)) V Hj); try reflexivity.
  - cbn. rewrite Hc. now destruct (Nat.eqb (S j) n).
  - cbn. rewrite Hc. destruct (Nat.eqb (S j) n); discriminate.
  - intros j' N. cbn. now rewrite nth_set_nth_neq by auto.
  - auto.
  - intros j' N Cl. now rewrite <- (Cs (S j')).
  - intros b [H|H]; discriminate.
  - intros _ _ Cl. rewrite (Cs (S j)) in Cl.
    cbn in Cl. rewrite Hc in Cl. cbn in Cl. apply andb_prop in Cl. destruct Cl as [Cl _].
    apply Nat.ltb_lt in Cl. lia.
Qed.

Lemma load_view_mono c s x : In x (cview s) -> In x (load_view c s).
Proof. unfold load_view. destruct (is_acquire (c_load c)); auto. intro H. apply In_vunion. auto. Qed.

(** At the return every worker called by the broadcast is past its decrement, so
    its call is in the counter's view, which the acquire load joins into the
    caller's. *)
Lemma invv_return c scr s n tok :
  Inv s -> Inv2 scr s -> InvV c s -> cst s = CLoad n -> rc s = 0 ->
  InvV c (do_return s n (load_view c s) tok).
Proof.
  intros I J V Hc Hr.
  assert (B : in_broadcast (cst s) = true) by now rewrite Hc.
  constructor; unfold do_return; cbn; try discriminate.
  - apply V.
  - intros Rl Aq. apply Forall_app. split; [now apply (V_ret _ _ V)|].
    constructor; [|constructor]. cbn. intros i Hi.
    unfold load_view. rewrite Aq. apply In_vunion.
    destruct i as [|j].
    + right. apply (V_caller _ _ V); auto. now rewrite Hc.
    + left.
      assert (Cl : called s (S j) = true).
      { apply (J_cur _ _ J B). apply (all_called_at_return scr s n I J Hc Hr). exact Hi. }
      destruct (V_loc _ _ V Rl B j Cl) as [(b & Hb)|H]; auto. exfalso.
      destruct Hb as [Hb|Hb]; pose proof (pre_rc_pos s j _ I Hb eq_refl); lia.
Qed.

Lemma invv_wrun c s j b p :
  Inv s -> InvV c s -> nth_error (ws s) j = Some (WRun b) -> InvV c (st_wrun s (S j) b p).
Proof.
  intros I V Hj.
  assert (Lt : j < length (wviews s)) by (rewrite (I_wv s I); eapply nth_error_lt; eauto).
  apply (invv_worker_stay c s _ j (WRun b) (WClone b) V Hj); try reflexivity; cbn; auto.
  - intros j' N. now rewrite nth_set_nth_neq by auto.
  - intros b0 [H|H]; inversion H; subst. rewrite nth_set_nth_eq by auto. apply In_vadd. auto.
  - intros _ _ _. left. eauto.
Qed.

(** The release decrement publishes the worker's view, which holds its call. *)
Lemma invv_wdec c s j b :
  Inv s -> InvV c s -> nth_error (ws s) j = Some (WDec b) -> InvV c (st_wdec c s (S j) b).
Proof.
  intros I V Hj.
  destruct (wf_at s _ _ I Hj) as [-> _].
  apply (invv_worker_stay c s _ j (WDec (cur s)) (if Nat.eqb (rc s) (c_unpark_old c) then WUnpark (cur s) else WIdle) V Hj);
    try reflexivity; cbn; auto.
  - intros x H. destruct (is_release (c_dec c)); auto. apply In_vunion. auto.
  - intros b0 [H|H]; destruct (Nat.eqb (rc s) (c_unpark_old c)); discriminate.
  - intros Rl _ _. right. rewrite Rl. apply In_vunion. left. apply (V_worker _ _ V). now right.
Qed.

Lemma invv_wunpark c s j b :
  InvV c s -> nth_error (ws s) j = Some (WUnpark b) -> InvV c (st_wunpark s (S j)).
Proof.
  intros V Hj.
  pose proof (nth_error_lt _ _ _ Hj) as Lt.
  apply (invv_worker_stay c s _ j (WUnpark b) WIdle V Hj); try reflexivity; cbn; auto.
  - intros b0 [H|H]; discriminate.
  - intros Rl B Cl. right.
    assert (Cl0 : called s (S j) = true).
    { revert Cl. cbn. rewrite nth_error_set_nth_eq, Hj by auto. auto. }
    destruct (V_loc _ _ V Rl B j Cl0) as [(b0 & [H|H])|H]; auto; unfold at_clone_or_dec in H; congruence.
Qed.

Theorem invv_step c scr s l s' :
  good c -> Inv s -> Inv2 scr s -> InvV c s -> step c s l = Some s' -> InvV c s'.
Proof.
  intros G I J V H.
  destruct (step_inv _ _ _ _ H) as [n rest Hc Es|j n Hc Hj|n p Hc|n Hc|n Hc Ht|n Hc|j b p Hj|j b Hj|j b Hj|j b Hj|Hc Es|j Hc Hj];
    rewrite ?(leave_good c s G), ?(good_loop c G).
  (* [park] returns, by token or spuriously *)
  5, 6: apply (invv_caller c s _ V); try reflexivity; cbn; rewrite ?Hc; try easy; intros _; now left.
  - now apply invv_begin.
  - now apply invv_send.
  - (* the caller's own call enters its view *)
    apply (invv_caller c s _ V); try reflexivity; cbn; rewrite ?Hc; try easy.
    + intros x X. apply In_vadd. auto.
    + intros _. right. apply In_vadd. auto.
  - destruct (Nat.eqb_spec (rc s) 0); [now apply (invv_return c scr)|].
    apply (invv_caller c s _ V); try reflexivity; cbn; rewrite ?Hc; try easy.
    + apply load_view_mono.
    + intros _. now left.
  - now apply invv_wrun.
  - (* the worker keeps its view from [WClone] to [WDec] *)
    apply (invv_worker_stay c s _ j (WClone b) (WDec b) V Hj); try reflexivity; cbn; auto.
    + intros b0 [X|X]; inversion X; subst. apply (V_worker _ _ V). now left.
    + intros _ _ _. left. eauto.
  - now apply invv_wdec.
  - now apply (invv_wunpark c s j b).
  - apply (invv_caller c s _ V); try reflexivity; cbn; now rewrite ?Hc.
  - apply (invv_worker_stay c s _ j WIdle WExit V Hj); try reflexivity; cbn; auto.
    + intros b0 [X|X]; discriminate.
    + rewrite Hc. discriminate.
Qed.

Theorem invv_reachable c scr s : good c -> reachable c scr s -> InvV c s.
Proof.
  intros G R. induction R.
  - apply invv_init.
  - eapply invv_step; eauto; [eapply inv_reachable|eapply inv2_reachable]; eauto.
Qed.

Lemma view_has_all_intro b n v : (forall i, i <= n -> In (b, i) v) -> view_has_all b n v = true.
Proof.
  intro H. unfold view_has_all. apply forallb_forall. intros i Hi. apply in_seq in Hi.
  apply vmem_In. apply H. lia.
Qed.

(** If the decrement is (at least) a release and the load (at least) an
    acquire, the caller's view at the return of a broadcast contains every call
    of that broadcast: the return happens-after all [n + 1] calls. *)
Lemma publication_inv c s r :
  InvV c s -> is_release (c_dec c) = true -> is_acquire (c_load c) = true -> In r (returned s) ->
  view_has_all (r_b r) (r_n r) (r_view r) = true
  /\ forall i, i <= r_n r -> In (r_b r, i) (r_view r).
Proof.
  intros V Rl Aq Hr. pose proof (proj1 (Forall_forall _ _) (V_ret _ _ V Rl Aq) r Hr) as F.
  split; auto. now apply view_has_all_intro.
Qed.

Theorem publication c scr s r :
  good c -> is_release (c_dec c) = true -> is_acquire (c_load c) = true ->
  reachable c scr s -> In r (returned s) ->
  view_has_all (r_b r) (r_n r) (r_view r) = true
  /\ forall i, i <= r_n r -> In (r_b r, i) (r_view r).
Proof. intros G Rl Aq R. apply (publication_inv c); auto. now apply (invv_reachable c scr). Qed.
