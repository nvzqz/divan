(** C17: the type label names the type.  For every type name (any string):
    the label and the type name agree once every [ident::] qualifier is deleted
    from both; hence two type names that get the same label agree up to
    qualifiers.  The label function before the repair fails both ("&a::S"). *)
From DivanV Require Import Base.Res Model.Registry.
Local Open Scope N_scope.

Lemma unq_ident_prefix : forall id s run,
  forallb is_ident_byte id = true -> unq (id ++ s) run = unq s (rev id ++ run).
Proof.
  induction id as [|c tl IH]; intros s run H; [reflexivity|].
  cbn in H. apply andb_true_iff in H. destruct H as [Hc Htl].
  cbn [app unq]. rewrite Hc. rewrite (IH s (c :: run) Htl). cbn [rev]. rewrite <- app_assoc. reflexivity.
Qed.

(** [id]: the identifier read since the current candidate [id ++ s] began. *)
Lemma ty_scan_unq : forall n s id, (length s <= n)%nat -> forallb is_ident_byte id = true ->
  unq (ty_scan s (id ++ s)) [] = unq s (rev id).
Proof.
  induction n as [|n IH]; intros [|c rest] id Hlen Hid;
    try (cbn [ty_scan]; rewrite (unq_ident_prefix id [] [] Hid), app_nil_r; reflexivity).
  - cbn in Hlen. lia.
  - cbn [ty_scan unq]. destruct (is_ident_byte c) eqn:Ec.
    + replace (id ++ c :: rest) with ((id ++ [c]) ++ rest) by (rewrite <- app_assoc; reflexivity).
      rewrite (IH rest (id ++ [c])).
      * rewrite rev_app_distr. reflexivity.
      * cbn in Hlen. lia.
      * rewrite forallb_app, Hid. cbn. rewrite Ec. reflexivity.
    + destruct rest as [|c2 rest2].
      * rewrite (unq_ident_prefix id [c] [] Hid). cbn [unq]. rewrite Ec, app_nil_r. reflexivity.
      * destruct ((c =? ch_colon) && (c2 =? ch_colon)) eqn:Ecc.
        -- apply (IH rest2 []); [cbn in Hlen; lia|reflexivity].
        -- rewrite (unq_ident_prefix id (c :: c2 :: rest2) [] Hid). cbn [unq]. rewrite Ec, Ecc, app_nil_r. reflexivity.
Qed.

Lemma label_names_type : forall raw, unqualify (type_display raw) = unqualify raw.
Proof.
  intro raw. unfold unqualify, type_display. apply (ty_scan_unq (length raw) raw []); [lia|reflexivity].
Qed.

Lemma labels_distinguish : forall raw1 raw2,
  type_display raw1 = type_display raw2 -> unqualify raw1 = unqualify raw2.
Proof. intros raw1 raw2 H. rewrite <- (label_names_type raw1), <- (label_names_type raw2), H. reflexivity. Qed.

(** Plain path types keep the label they always had. *)
Example path_labels_unchanged :
  (* "alloc::string::String", "alloc::vec::Vec<alloc::string::String>" *)
  type_display [97;108;108;111;99;58;58;115;116;114;105;110;103;58;58;83;116;114;105;110;103] = [83;116;114;105;110;103] /\
  type_display_old [97;108;108;111;99;58;58;115;116;114;105;110;103;58;58;83;116;114;105;110;103] = [83;116;114;105;110;103] /\
  type_display [97;58;58;86;60;98;58;58;83;62] = [86;60;98;58;58;83;62] /\
  type_display_old [97;58;58;86;60;98;58;58;83;62] = [86;60;98;58;58;83;62].
Proof. repeat split; vm_compute; reflexivity. Qed.

(** The old function: "&a::S" and "a::S" both get the label "S". *)
Example old_label_refuted :
  let r1 := [38; 97; 58; 58; 83] in    (* "&a::S" *)
  let r2 := [97; 58; 58; 83] in        (* "a::S" *)
  type_display_old r1 = type_display_old r2 /\
  unqualify r1 <> unqualify r2 /\
  unqualify (type_display_old r1) <> unqualify r1 /\
  type_display r1 = r1 /\ type_display r2 = [83].
Proof. repeat split; vm_compute; try reflexivity; discriminate. Qed.
