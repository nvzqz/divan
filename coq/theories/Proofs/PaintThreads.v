(** The thread-count branches of a benchmark: every requested count (0 read as
    the machine's parallelism) exactly once, in increasing order. *)
From DivanV Require Import Base.Res Model.PaintThreads.
Local Open Scope N_scope.

Inductive incr : list N -> Prop :=
| incr_nil : incr []
| incr_one : forall a, incr [a]
| incr_cons : forall a b r, a < b -> incr (b :: r) -> incr (a :: b :: r).

Inductive nondecr : list N -> Prop :=
| nd_nil : nondecr []
| nd_one : forall a, nondecr [a]
| nd_cons : forall a b r, a <= b -> nondecr (b :: r) -> nondecr (a :: b :: r).

Lemma insert_in : forall x l y, In y (insert_n x l) <-> x = y \/ In y l.
Proof.
  induction l as [|a r IH]; intros y; cbn; [tauto|].
  destruct (x <=? a); cbn; [tauto|]. rewrite IH. tauto.
Qed.

Lemma insert_nondecr : forall x l, nondecr l -> nondecr (insert_n x l).
Proof.
  induction 1 as [|a|a b r Hab Hr IH]; cbn [insert_n] in *.
  - constructor.
  - destruct (N.leb_spec x a); constructor; try lia; constructor.
  - destruct (N.leb_spec x a); [constructor; [assumption | constructor; assumption]|].
    destruct (N.leb_spec x b); constructor; (lia || assumption).
Qed.

Lemma sort_in : forall l y, In y (sort_n l) <-> In y l.
Proof. induction l as [|a r IH]; intros y; cbn; [tauto|]. rewrite insert_in, IH. tauto. Qed.

Lemma sort_nondecr : forall l, nondecr (sort_n l).
Proof. induction l; cbn; [constructor | apply insert_nondecr; assumption]. Qed.

Lemma dedup_cons2 : forall a b r,
  dedup_n (a :: b :: r) = if a =? b then dedup_n (b :: r) else a :: dedup_n (b :: r).
Proof. reflexivity. Qed.

Lemma dedup_in : forall l y, In y (dedup_n l) <-> In y l.
Proof.
  induction l as [|a r IH]; intros y; [tauto|].
  destruct r as [|b r']; [cbn; tauto|]. rewrite dedup_cons2.
  destruct (N.eqb_spec a b) as [->|_]; [|cbn [In]]; rewrite IH; cbn; tauto.
Qed.

Lemma dedup_hd : forall r a, exists r', dedup_n (a :: r) = a :: r'.
Proof.
  induction r as [|b r IH]; intros a; [exists []; reflexivity|]. rewrite dedup_cons2.
  destruct (N.eqb_spec a b) as [->|_]; [apply IH | eexists; reflexivity].
Qed.

(** After sorting, equal counts are adjacent, so dropping adjacent duplicates
    leaves a strictly increasing list. *)
Lemma dedup_incr : forall l, nondecr l -> incr (dedup_n l).
Proof.
  induction 1 as [|a|a b r Hab Hr IH]; [constructor | constructor |]. rewrite dedup_cons2.
  destruct (N.eqb_spec a b) as [->|Hne]; [exact IH|].
  destruct (dedup_hd r b) as (r' & E). rewrite E in *. constructor; [lia | exact IH].
Qed.

(** Every requested count, with 0 read as [par], appears; nothing else does;
    strictly increasing, hence each exactly once. *)
Theorem threads_norm : forall par raw,
  incr (norm_threads par raw) /\
  forall n, In n (norm_threads par raw) <-> In n (resolve_threads par raw).
Proof.
  intros. unfold norm_threads. split.
  - apply dedup_incr, sort_nondecr.
  - intros n. rewrite dedup_in, sort_in. tauto.
Qed.

Example threads_norm_ex :
  norm_threads 16 [2; 0; 1; 2] = [1; 2; 16] /\ norm_threads 16 [0; 16] = [16] /\ norm_threads 16 [] = [].
Proof. repeat split. Qed.
