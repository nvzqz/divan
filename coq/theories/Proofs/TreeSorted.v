(** Sorting the descendants of a node does not change what the sibling
    comparator sees of it (address, kind, name, constant, location — the
    earliest location among the children is independent of their order), hence
    the output of [sort_forest] is sorted at every level with respect to the
    comparator evaluated on the output's own nodes. *)

From Coq Require Import Permutation.
From DivanV Require Import Base.Res Generated.Consts Model.Natural Model.SortBy Model.ArgCmp
  Model.TreeCmp Proofs.SortCmp Proofs.SortUniq Proofs.Natural Proofs.TreeCmp Proofs.TreeSort.
Local Open Scope N_scope.

Lemma loc_cmp_eq : forall a b, loc_cmp a b = Eq -> a = b.
Proof.
  intros [fa [la ca]] [fb [lb cb]]. unfold loc_cmp. simpl.
  destruct (bytes_cmp fa fb) eqn:E1; try discriminate. apply bytes_cmp_eq in E1. subst fb.
  destruct (la ?= lb) eqn:E2; try discriminate. apply N.compare_eq in E2. subst lb.
  intros E3. apply N.compare_eq in E3. subst cb. reflexivity.
Qed.

Definition is_min (m : loc) (ol : list (option loc)) : Prop :=
  In (Some m) ol /\ forall x, In (Some x) ol -> loc_cmp m x <> Gt.

Definition fold_min (ol : list (option loc)) : option loc := fold_right min_opt_loc None ol.

Lemma fold_min_spec : forall ol,
  match fold_min ol with
  | None => forall x, ~ In (Some x) ol
  | Some m => is_min m ol
  end.
Proof.
  pose proof tpo_loc_cmp as T.
  induction ol as [|o r IH]; simpl.
  - intros x [].
  - unfold fold_min in *. simpl. destruct (fold_right min_opt_loc None r) as [m|] eqn:E.
    + destruct o as [x|]; simpl.
      * destruct IH as [Hin Hmin]. destruct (loc_cmp m x) eqn:C.
        -- split; [left; reflexivity|]. intros y [[= <-]|Hy].
           ++ rewrite (tpo_refl all _ T x I). discriminate.
           ++ apply loc_cmp_eq in C. subst x. apply Hmin. exact Hy.
        -- split; [right; exact Hin|]. intros y [[= <-]|Hy]; [rewrite C; discriminate|apply Hmin; exact Hy].
        -- split; [left; reflexivity|]. intros y [[= <-]|Hy].
           ++ rewrite (tpo_refl all _ T x I). discriminate.
           ++ apply (tpo_le_trans all _ T x m y I I I); [|apply Hmin; exact Hy].
              rewrite (tpo_gt_lt all _ T m x I I C). discriminate.
      * destruct IH as [Hin Hmin]. split; [right; exact Hin|].
        intros y [Hy|Hy]; [discriminate|apply Hmin; exact Hy].
    + destruct o as [x|]; simpl.
      * split; [left; reflexivity|]. intros y [[= <-]|Hy]; [|exfalso; eapply IH; eauto].
        rewrite (tpo_refl all _ T x I). discriminate.
      * intros y [Hy|Hy]; [discriminate|eapply IH; eauto].
Qed.

Lemma is_min_unique : forall ol m m', is_min m ol -> is_min m' ol -> m = m'.
Proof.
  intros ol m m' [I1 H1] [I2 H2]. apply loc_cmp_eq.
  apply (tpo_le_antisym all _ tpo_loc_cmp m m' I I); [apply H1; exact I2|apply H2; exact I1].
Qed.

Lemma fold_min_perm : forall ol ol', Permutation ol ol' -> fold_min ol = fold_min ol'.
Proof.
  intros ol ol' HP. pose proof (fold_min_spec ol) as S1. pose proof (fold_min_spec ol') as S2.
  destruct (fold_min ol) as [m|]; destruct (fold_min ol') as [m'|]; try reflexivity.
  - f_equal. apply (is_min_unique ol' m m'); [|exact S2].
    destruct S1 as [Hin Hmin]. split.
    + eapply Permutation_in; eauto.
    + intros x Hx. apply Hmin. eapply Permutation_in; [apply Permutation_sym; exact HP|exact Hx].
  - exfalso. destruct S1 as [Hin _]. apply (S2 m). eapply Permutation_in; eauto.
  - exfalso. destruct S2 as [Hin _]. apply (S1 m'). eapply Permutation_in; [apply Permutation_sym; exact HP|exact Hin].
Qed.

Lemma location_parent : forall raw ch,
  location (Parent raw None ch) = fold_min (map location ch).
Proof.
  intros raw ch. unfold fold_min. simpl.
  induction ch as [|c r IH]; simpl; [reflexivity|]. rewrite IH. reflexivity.
Qed.

Lemma ssorted_F2 {A} (R : A -> A -> Prop) (c : A -> A -> comparison) :
  (forall x x' y y', R x x' -> R y y' -> c x' y' = c x y) ->
  forall l l', Forall2 R l l' -> ssorted c l -> ssorted c l'.
Proof.
  intros HR. induction 1 as [|x x' l l' Hx Hl IH]; intros S; simpl; [exact I|].
  destruct S as [Sx Sl]. split; [|apply IH; exact Sl].
  clear IH Sl. induction Hl as [|y y' r r' Hy Hr IHr]; [constructor|].
  inversion Sx; subst. constructor; [rewrite (HR x x' y y' Hx Hy); assumption|apply IHr; assumption].
Qed.

Section Invariance.
Variable V : Type.
Variable vcmp : V -> V -> comparison.
Variable fparse : bytes -> option V.
Notation sorted_perm := (sorted_perm V vcmp fparse).

Lemma sp_location : forall attr rev t t', sorted_perm attr rev t t' -> location t' = location t.
Proof.
  intros attr rev. fix IH 3. intros t t' H.
  destruct H as [a n c l|a n c l args L PL SL|raw g ch mid ch' PM SM F2]; try reflexivity.
  destruct g as [[[ga gn] gl]|]; [reflexivity|].
  rewrite !location_parent.
  assert (E : forall m c', Forall2 (sorted_perm attr rev) m c' -> map location c' = map location m).
  { clear -IH. fix IHl 3. intros m c' F.
    destruct F as [|x y l l' Hxy Hl]; simpl; [reflexivity|].
    f_equal; [apply IH; exact Hxy|apply IHl; exact Hl]. }
  rewrite (E mid ch' F2). apply fold_min_perm. apply Permutation_map. apply Permutation_sym. exact PM.
Qed.

Lemma sp_shallow : forall attr rev t t', sorted_perm attr rev t t' ->
  entry_addr t' = entry_addr t /\ kind t' = kind t /\ display_name t' = display_name t /\
  leaf_const t' = leaf_const t.
Proof. intros attr rev t t' H. destruct H; repeat split; reflexivity. Qed.

Lemma sp_cmp : forall attr rev a x x' y y',
  sorted_perm attr rev x x' -> sorted_perm attr rev y y' ->
  cmp_by_attr a x' y' = cmp_by_attr a x y.
Proof.
  intros attr rev a x x' y y' Hx Hy.
  destruct (sp_shallow _ _ _ _ Hx) as (Ax & Kx & Nx & Cx).
  destruct (sp_shallow _ _ _ _ Hy) as (Ay & Ky & Ny & Cy).
  pose proof (sp_location _ _ _ _ Hx) as Lx. pose proof (sp_location _ _ _ _ Hy) as Ly.
  assert (EA : addr_ordering x' y' = addr_ordering x y) by (unfold addr_ordering; rewrite Ax, Ay; reflexivity).
  assert (EC : forall b, attr_cmp_tree b x' y' = attr_cmp_tree b x y).
  { intros [| |]; unfold attr_cmp_tree.
    - rewrite Kx, Ky. reflexivity.
    - unfold name_cmp_tree. rewrite Cx, Cy, Nx, Ny. reflexivity.
    - rewrite Lx, Ly, EA. reflexivity. }
  unfold cmp_by_attr. rewrite EA.
  assert (ECs : forall l, cascade (map attr_cmp_tree l) x' y' = cascade (map attr_cmp_tree l) x y).
  { induction l as [|b l IHl]; simpl; [reflexivity|]. rewrite EC, IHl. reflexivity. }
  rewrite ECs. reflexivity.
Qed.

(** Sorted at every level, the comparator being evaluated on the output. *)
Inductive tree_sorted (attr : sort_attr) (rev : bool) : tree -> Prop :=
| TS_leaf : forall a n c l args, tree_sorted attr rev (Leaf a n c l args)
| TS_parent : forall raw g ch,
    ssorted (revc rev (cmp_by_attr attr)) ch -> Forall (tree_sorted attr rev) ch ->
    tree_sorted attr rev (Parent raw g ch).

Lemma sp_tree_sorted : forall attr rev t t', sorted_perm attr rev t t' -> tree_sorted attr rev t'.
Proof.
  intros attr rev. fix IH 3. intros t t' H.
  destruct H as [a n c l|a n c l args L PL SL|raw g ch mid ch' PM SM F2]; try constructor.
  - apply (ssorted_F2 (sorted_perm attr rev) _) with (l := mid); [|exact F2|exact SM].
    intros x x' y y' Hx Hy. unfold revc. rewrite (sp_cmp attr rev attr x x' y y' Hx Hy). reflexivity.
  - assert (E : forall m c', Forall2 (sorted_perm attr rev) m c' -> Forall (tree_sorted attr rev) c').
    { clear -IH. fix IHl 3. intros m c' F.
      destruct F as [|x y l l' Hxy Hl]; [constructor|].
      constructor; [eapply IH; exact Hxy|eapply IHl; exact Hl]. }
    exact (E mid ch' F2).
Qed.

Lemma sort_forest_total_sorted : forall attr rev ts,
  sib_ok ts -> Forall (wf_tree V vcmp fparse) ts ->
  exists ts', sort_forest V vcmp fparse attr rev ts = Ok ts' /\
    tree_perm (Parent [] None ts) (Parent [] None ts') /\
    sorted_perm attr rev (Parent [] None ts) (Parent [] None ts') /\
    tree_sorted attr rev (Parent [] None ts').
Proof.
  intros attr rev ts Hs Hw.
  destruct (sort_forest_total V vcmp fparse attr rev ts Hs Hw) as (ts' & E & SP & TP).
  exists ts'. split; [exact E|split; [exact TP|split; [exact SP|]]].
  eapply sp_tree_sorted. exact SP.
Qed.

End Invariance.

(** Any two sorted permutations of a sibling set (whatever the sorting
    algorithm, stable or not) agree position by position up to [Equal]: the
    printed order is determined except inside tie classes. *)
Lemma siblings_unique_upto_ties : forall (S : tree -> Prop) attr rev,
  addr_identity S -> loc_addr_uniform S -> consts_uniform S ->
  let c := revc rev (cmp_by_attr attr) in
  forall l l1 l2, Forall S l ->
  Permutation l l1 -> ssorted c l1 -> Permutation l l2 -> ssorted c l2 ->
  Forall2 (fun x y => c x y = Eq) l1 l2.
Proof.
  intros S attr rev H1 H2 H3 c l l1 l2 Hl P1 S1 P2 S2.
  assert (T : tpo_on S c) by (apply tpo_rev; apply (tpo_cmp_by_attr S H1 H2 H3)).
  apply (sorted_perm_unique_upto_ties S c T).
  - exact (Permutation_Forall P1 Hl).
  - eapply perm_trans; [apply Permutation_sym; exact P1|exact P2].
  - exact S1.
  - exact S2.
Qed.
