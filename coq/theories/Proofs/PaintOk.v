(** Soundness of the boolean [picture_okb], the C20 parser theorems under that
    decidable condition, and examples that their hypotheses are satisfiable. *)
From DivanV Require Import Base.Res Model.Painter Model.DriverPaint Model.Parse Model.PaintOk
  Proofs.Painter Proofs.PaintDriver Proofs.PaintParse Proofs.PaintParse2 Proofs.ListFacts.

Lemma neqb : forall a b, negb (N.eqb a b) = true -> a <> b.
Proof. intros a b H. apply N.eqb_neq, negb_true_iff, H. Qed.

Lemma plainb_sound : forall s, forallb plain_charb s = true -> plain s.
Proof.
  intros s H c Hc. rewrite forallb_forall in H. specialize (H c Hc). unfold plain_charb in H.
  repeat (apply andb_prop in H; destruct H as [H ?]). repeat split; apply neqb; assumption.
Qed.

Lemma tame_rowb_sound : forall row, forallb (forallb tame_charb) row = true -> Forall tame row.
Proof.
  apply forallb_Forall_impl. intros s H c Hc. rewrite forallb_forall in H. specialize (H c Hc).
  unfold tame_charb in H.
  repeat (apply andb_prop in H; destruct H as [H ?]). repeat split; apply neqb; assumption.
Qed.

Lemma nobar_rowb_sound : forall row, forallb nobarb row = true -> Forall nobar row.
Proof.
  apply forallb_Forall_impl. intros s H Hin. unfold nobarb in H. rewrite forallb_forall in H.
  specialize (H _ Hin). rewrite N.eqb_refl in H. discriminate.
Qed.

(** Model/PaintOk.v and PaintParse.v write the same fixpoint. *)
Lemma name_tail_okb_eq : forall s, name_tail_okb s = name_tail_ok s.
Proof. reflexivity. Qed.

Lemma name_okb_sound : forall n, name_okb n = true -> name_ok n.
Proof.
  intros n H. unfold name_okb in H. apply andb_prop in H. destruct H as [H1 H2].
  split; [apply plainb_sound; exact H1 | rewrite <- name_tail_okb_eq; exact H2].
Qed.

Lemma cells_okb_sound : forall c, cells_okb c = true -> cells_ok c.
Proof.
  intros [row|] H; [|exact I]. cbn in *.
  apply andb_prop in H. destruct H as [H H3]. apply andb_prop in H. destruct H as [H1 H2].
  split; [apply nobar_rowb_sound, H1|]. split; [apply tame_rowb_sound, H2|].
  unfold row_visibleb in H3. apply orb_prop in H3. destruct H3 as [H3|H3].
  - left. apply PeanoNat.Nat.leb_le. exact H3.
  - right. destruct row as [|c [|? ?]]; try discriminate. exists c. split; [reflexivity|].
    destruct (trim c); [discriminate | congruence].
Qed.

Lemma spec_okb_sound : forall l, spec_okb l = true -> spec_ok l.
Proof.
  intros [n c | fl last n c | fl last row |] H; cbn in *.
  - apply andb_prop in H. destruct H as [H H3]. apply andb_prop in H. destruct H as [H1 H2].
    split; [apply name_okb_sound; exact H1|]. split; [apply cells_okb_sound; exact H2|].
    destruct n as [|a r]; [discriminate|]. exists a, r. split; [reflexivity | apply neqb; exact H3].
  - apply andb_prop in H. destruct H as [H1 H2].
    split; [apply name_okb_sound; exact H1 | apply cells_okb_sound; exact H2].
  - apply andb_prop in H. destruct H as [H1 H2].
    split; [apply nobar_rowb_sound, H1 | apply tame_rowb_sound, H2].
  - exact I.
Qed.

Theorem parse_render_b : forall a t,
  forallb is_group t = true -> Forall wf_node t -> picture_okb a t = true ->
  exists p out, paint a t = Ok (p, out) /\ parse out = Some (skeleton a t).
Proof.
  intros a t Hg Hw Hok. apply parse_render; auto.
  exact (forallb_Forall_impl _ _ spec_okb_sound _ Hok).
Qed.

Theorem rows_belong : forall fl last row line,
  forallb nobarb row = true -> forallb (forallb tame_charb) row = true ->
  line_ok (LRow fl last row) line ->
  classify line = TRow line /\
  exists t', strip_prefix (row_prefix fl last) line = Some t' /\
             map trim (split_on c_bar t') = map trim row.
Proof.
  intros fl last row line H1 H2 Hl.
  apply (row_line fl last row line (nobar_rowb_sound row H1) (tame_rowb_sound row H2) Hl).
Qed.

Lemma str_eqb_refl : forall s, str_eqb s s = true.
Proof. induction s as [|c r IH]; [reflexivity|]. cbn. rewrite N.eqb_refl, IH. reflexivity. Qed.

Lemma list_eqb_refl : forall A (eqb : A -> A -> bool) l,
  (forall x, In x l -> eqb x x = true) -> list_eqb eqb l l = true.
Proof.
  induction l as [|x r IH]; intros H; [reflexivity|]. cbn [list_eqb].
  rewrite (H x (or_introl eq_refl)), IH; [reflexivity | intros y Hy; apply H; right; exact Hy].
Qed.

Lemma sk_ind2 (P : sk -> Prop) :
  (forall n c r k, Forall P k -> P (Sk n c r k)) -> forall s, P s.
Proof.
  intros H. fix IH 1. intros [n c r k]. apply H.
  induction k as [|x k' IHk]; constructor; [apply IH | exact IHk].
Qed.

Lemma sk_eqb_refl : forall s, sk_eqb s s = true.
Proof.
  induction s as [n c r k IH] using sk_ind2. cbn [sk_eqb].
  rewrite str_eqb_refl.
  rewrite (list_eqb_refl _ str_eqb c) by (intros; apply str_eqb_refl).
  rewrite (list_eqb_refl _ (list_eqb str_eqb) r)
    by (intros; apply list_eqb_refl; intros; apply str_eqb_refl).
  cbn [andb]. induction k as [|x k' IHk]; [reflexivity|].
  inversion IH as [|? ? Hx Hk]; subst. rewrite Hx. cbn [andb]. apply IHk. exact Hk.
Qed.

Lemma paint_sb_of_parse : forall a t out,
  t <> [] -> parse out = Some (skeleton a t) -> paint_sb a t out = true.
Proof.
  intros a [|n r] out Hne Hp; [congruence|]. unfold paint_sb. rewrite Hp.
  apply list_eqb_refl. intros x _. apply sk_eqb_refl.
Qed.

Theorem model_sb : forall a t,
  forallb is_group t = true -> Forall wf_node t -> picture_okb a t = true ->
  exists p out, paint a t = Ok (p, out) /\ paint_sb a t out = true.
Proof.
  intros a t Hg Hw Hok. destruct (parse_render_b a t Hg Hw Hok) as (p & out & E & Hp).
  exists p, out. split; [exact E|]. destruct t as [|n r].
  - injection E as _ <-. reflexivity.
  - apply paint_sb_of_parse; [discriminate | exact Hp].
Qed.

Local Open Scope N_scope.
Definition ex_row (x : N) : list str := [[49; x]; [50; 32; 110; 115]; [51]; [52]; []; []].
Definition ex_cells : stats_cells :=
  mkCells [[49; 32; 110; 115]; [50; 32; 110; 115]; [49; 46; 53; 32; 110; 115]; [49; 32; 110; 115]; [50]; [50]]
          [ex_row 66; six_empty; six_empty; ex_row 105]
          (Some ([[32; 32; 49]; [49]; [49]; [49]; []; []], [[32; 32; 56; 32; 66]; [56; 32; 66]; [56; 32; 66]; [56; 32; 66]; []; []]))
          [([97; 108; 108; 111; 99; 58], [[32; 32; 49]; [49]; [49]; [49]; []; []], ex_row 66)].
Definition ex_out (i j : nat) : run := mkRun (Nat.eqb j 0 || Nat.eqb i 1) ex_cells.
Definition ex_tree : list node :=
  [Group [99; 114; 97; 116; 101] None
     [Bench 1 [97; 32; 98] None false None [] ex_out;
      Bench 2 [105; 103; 110] (Some None) true None [] ex_out;
      Group [26085; 26412] (Some (Some 1000))
        [Bench 3 [119] (Some (Some 5)) false (Some [[49]; []; [50; 50]]) [1; 2; 16] ex_out;
         Bench 4 [122] None false None [2; 4] ex_out];
      Bench 5 [108; 97; 115; 116] None false None [] ex_out];
   Group [111; 116; 104; 101; 114] None [Bench 6 [111] None false None [] ex_out]].

Example ex_top_groups : forallb is_group ex_tree = true.
Proof. reflexivity. Qed.

Example ex_wf : Forall wf_node ex_tree.
Proof.
  assert (Hc : wf_cells ex_cells) by (split; [reflexivity | repeat constructor]).
  repeat (constructor; try (intros; exact Hc)).
Qed.

Example ex_picture_ok :
  picture_okb ABench ex_tree = true /\ picture_okb ATest ex_tree = true /\ picture_okb AList ex_tree = true.
Proof. repeat split; vm_compute; reflexivity. Qed.

Example ex_parse_render :
  match paint ABench ex_tree with
  | Ok (_, out) => parse out = Some (skeleton ABench ex_tree) /\ paint_sb ABench ex_tree out = true
  | Panic _ => False
  end.
Proof.
  destruct (parse_render_b ABench ex_tree ex_top_groups ex_wf (proj1 ex_picture_ok)) as (p & out & E & Hp).
  rewrite E. split; [exact Hp | apply paint_sb_of_parse; [discriminate | exact Hp]].
Qed.

Example ex_row_hyps : forallb nobarb (ex_row 66) = true /\ forallb (forallb tame_charb) (ex_row 66) = true.
Proof. split; reflexivity. Qed.
