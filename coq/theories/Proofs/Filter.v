(** Proofs about Model/Filter.v: [FilterSet::is_match] on a set built by any
    interleaving of [include]/[exclude] equals the specification on the history. *)
From Coq Require Import Permutation.
From DivanV Require Import Base.Res Model.SplitVec Model.Filter Proofs.SplitVec Proofs.ListFacts.

Lemma position_app {A : Type} (p : A -> bool) (l1 l2 : list A) :
  position p (l1 ++ l2) =
  match position p l1 with
  | Some i => Some i
  | None => match position p l2 with Some j => Some (length l1 + j)%nat | None => None end
  end.
Proof.
  induction l1 as [|x l1 IH]; cbn [app position length].
  - destruct (position p l2); reflexivity.
  - destruct (p x); [reflexivity|]. rewrite IH.
    destruct (position p l1); [reflexivity|].
    destruct (position p l2); reflexivity.
Qed.

Lemma position_some_lt {A : Type} (p : A -> bool) (l : list A) (i : nat) :
  position p l = Some i -> (i < length l)%nat.
Proof.
  revert i. induction l as [|x l IH]; intros i H; cbn [position] in H; [discriminate|].
  destruct (p x).
  - injection H as <-. apply Nat.lt_0_succ.
  - destruct (position p l) as [j|]; [|discriminate].
    injection H as <-. apply -> Nat.succ_lt_mono. apply IH. reflexivity.
Qed.

Lemma position_existsb {A : Type} (p : A -> bool) (l : list A) :
  existsb p l = match position p l with Some _ => true | None => false end.
Proof.
  induction l as [|x l IH]; cbn [existsb position]; [reflexivity|].
  destruct (p x); [reflexivity|]. cbn [orb]. rewrite IH.
  destruct (position p l); reflexivity.
Qed.

Lemma str_eqb_eq (a b : str) : str_eqb a b = true <-> a = b.
Proof. apply list_eqb_eq, N.eqb_eq. Qed.

Lemma str_eqb_refl (s : str) : str_eqb s s = true.
Proof. apply str_eqb_eq. reflexivity. Qed.

Section WithRegexOracle.
  Variable matches : str -> str -> bool.

  (** The specification reads the history; the set only has its two halves.
      Both say the same once the history is split by the flag. *)
  Lemma existsb_flagged (c : bool -> bool) (ops : list (pfilter * bool)) (p : str) :
    existsb (fun o => c (snd o) && filter_is_match matches (fst o) p) ops
    = existsb (fun f => filter_is_match matches f p) (map fst (filter (fun o => c (snd o)) ops)).
  Proof.
    induction ops as [|[f b] ops IH]; [reflexivity|].
    cbn [existsb filter snd fst]. rewrite IH. destruct (c b); reflexivity.
  Qed.

  Lemma is_match_spec_halves (ops : list (pfilter * bool)) (p : str) :
    is_match_spec matches ops p =
    negb (existsb (fun f => filter_is_match matches f p) (inserted_before ops))
    && (match inserted_after ops with [] => true | _ => false end
        || existsb (fun f => filter_is_match matches f p) (inserted_after ops)).
  Proof.
    unfold is_match_spec, any_skip, any_positive, no_positives, inserted_before, inserted_after.
    rewrite (existsb_flagged negb), (existsb_flagged (fun b => b)), (existsb_filter_nil (fun o => snd o)).
    destruct (filter (fun o => snd o) ops); reflexivity.
  Qed.

  (** [is_match] of a set with exclusive filters [F] and inclusive filters [R]:
      the first match decides, and it lies in [F] iff its position is below the
      split. *)
  Lemma fs_is_match_halves (F R : list pfilter) (p : str) :
    fs_is_match matches (sv_of F R) p =
    Ok (negb (existsb (fun f => filter_is_match matches f p) F)
        && (match R with [] => true | _ => false end
            || existsb (fun f => filter_is_match matches f p) R)).
  Proof.
    unfold fs_is_match. rewrite (sv_split_index_ok _ (sv_of_wf F R)). cbn [bind sv_of sv_items sv_split].
    set (q := fun f => filter_is_match matches f p).
    rewrite position_app, (position_existsb q F), (position_existsb q R), app_length.
    destruct (position q F) as [i|] eqn:EF; cbn [negb andb].
    - f_equal. apply Nat.leb_gt. exact (position_some_lt _ _ _ EF).
    - destruct (position q R) as [j|].
      + rewrite orb_true_r. f_equal. apply Nat.leb_le. lia.
      + rewrite orb_false_r. f_equal. destruct R; cbn [length].
        * apply Nat.eqb_eq. lia.
        * apply Nat.eqb_neq. lia.
  Qed.

  Lemma fs_build_ok (ops : list (pfilter * bool)) :
    exists fs, fs_build ops = Ok fs /\
               forall p, fs_is_match matches fs p = Ok (is_match_spec matches ops p).
  Proof.
    destruct (sv_build_spec ops) as (fs & Hbuild & Hwf & _ & Hbefore & Hafter).
    exists fs. split; [exact Hbuild|]. intros p.
    rewrite (sv_wf_repr fs Hwf), fs_is_match_halves, Hbefore, is_match_spec_halves.
    rewrite (Permutation_existsb _ _ _ Hafter), (Permutation_nil_test _ _ Hafter). reflexivity.
  Qed.

  Lemma is_match_correct (ops : list (pfilter * bool)) (p : str) :
    fs_query matches ops p = Ok (is_match_spec matches ops p).
  Proof. unfold fs_query. destruct (fs_build_ok ops) as (fs & -> & H). apply H. Qed.

  Lemma filter_order_irrelevant (ops ops' : list (pfilter * bool)) (p : str) :
    Permutation ops ops' -> fs_query matches ops p = fs_query matches ops' p.
  Proof.
    intros H. rewrite !is_match_correct. unfold is_match_spec, any_skip, any_positive, no_positives.
    rewrite !(Permutation_existsb _ _ _ H). reflexivity.
  Qed.

  Lemma is_match_sb_model (ops : list (pfilter * bool)) (p : str) :
    is_match_sb matches ops p (fs_query matches ops p) = true.
  Proof.
    rewrite is_match_correct. cbn [is_match_sb]. apply eqb_reflx.
  Qed.

  Lemma any_skip_false (ops : list (pfilter * bool)) (p : str) :
    any_skip matches ops p = false <-> forall f, In (f, false) ops -> filter_is_match matches f p = false.
  Proof.
    unfold any_skip. rewrite existsb_false_iff. split.
    - intros H f Hin. exact (H (f, false) Hin).
    - intros H [f []] Hin; [reflexivity | exact (H f Hin)].
  Qed.

  Lemma no_positives_true (ops : list (pfilter * bool)) :
    no_positives ops = true <-> forall f, ~ In (f, true) ops.
  Proof.
    unfold no_positives. rewrite negb_true_iff, existsb_false_iff. split.
    - intros H f Hin. discriminate (H (f, true) Hin).
    - intros H [f []] Hin; [destruct (H f Hin) | reflexivity].
  Qed.

  Lemma any_positive_true (ops : list (pfilter * bool)) (p : str) :
    any_positive matches ops p = true <-> exists f, In (f, true) ops /\ filter_is_match matches f p = true.
  Proof.
    unfold any_positive. rewrite existsb_exists. split.
    - intros [[f []] [Hin Hm]]; [|discriminate]. exists f. split; assumption.
    - intros [f [Hin Hm]]. exists (f, true). split; assumption.
  Qed.

  Lemma is_match_spec_meaning (ops : list (pfilter * bool)) (p : str) :
    is_match_spec matches ops p = true <->
    (forall f, In (f, false) ops -> filter_is_match matches f p = false) /\
    ((forall f, ~ In (f, true) ops) \/ exists f, In (f, true) ops /\ filter_is_match matches f p = true).
  Proof.
    unfold is_match_spec.
    rewrite andb_true_iff, orb_true_iff, negb_true_iff, any_skip_false, no_positives_true, any_positive_true.
    reflexivity.
  Qed.

  Lemma is_match_sb_meaning (ops : list (pfilter * bool)) (p : str) (b : bool) :
    is_match_sb matches ops p (Ok b) = true <->
    (b = true <->
     (forall f, In (f, false) ops -> filter_is_match matches f p = false) /\
     ((forall f, ~ In (f, true) ops) \/ exists f, In (f, true) ops /\ filter_is_match matches f p = true)).
  Proof.
    cbn [is_match_sb]. rewrite eqb_true_iff, (eq_iff_eq_true b), is_match_spec_meaning. reflexivity.
  Qed.
End WithRegexOracle.

(** A concrete history where a skip filter overrides a positive one and where
    two positives are ORed. *)
Example is_match_example :
  let m := fun (pat s : str) => str_eqb pat [97%N] in   (* pattern "a" matches everything *)
  let ops := [(FExact [120%N], true); (FExact [121%N], false); (FRegex [97%N], true); (FExact [120%N], false)] in
  fs_query m ops [120%N] = Ok false /\ fs_query m ops [122%N] = Ok true /\ fs_query m ops [121%N] = Ok false.
Proof. repeat split; reflexivity. Qed.
