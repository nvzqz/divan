(** C17: the case shown under a label runs with the value whose rendering is
    that label; the executed cases are exactly the selected ones; argument
    lists are evaluated once and shared. *)
From Coq Require Import Permutation.
From DivanV Require Import Base.Res Model.Registry Model.Tree Model.Driver
  Proofs.TreeBase Proofs.DriverExec Proofs.DriverC14 Proofs.TreeLeaves Proofs.Flat Proofs.Expand Proofs.ListFacts.
Local Open Scope N_scope.

(** "label = to_string value": the display path ends in "::" ++ rendering of the received value. *)
Definition label_ok (x : xcase) : Prop :=
  match snd x with
  | Some (i, v) => exists base, xpath x = base ++ s_colons ++ value_to_string v
  | None => True
  end.

Lemma arg_label_value : forall e o vals i v,
  entry_runner e = RArgs o vals -> nth_error vals (N.to_nat i) = Some v -> arg_label e i = value_to_string v.
Proof.
  intros e o vals i v He Hn. unfold arg_label, entry_arg_names. rewrite He. unfold arg_names.
  rewrite (map_nth_error value_to_string _ _ Hn). reflexivity.
Qed.

Lemma exec_node_label : forall c t pp po, Forall label_ok (exec_node c pp po t).
Proof.
  intros c. induction t as [e a|r g ch IH] using tree_ind'; intros pp po; cbn [exec_node].
  - destruct (leaf_ignored c _); [constructor|].
    destruct (entry_runner e) as [|o vals] eqn:He.
    + constructor; [exact I|constructor].
    + apply Forall_flat_map, Forall_forall. intros i _. apply Forall_forall. intros x Hx.
      destruct (arg_case_inv _ _ _ _ _ Hx) as [v [Hv Hxe]]. subst x.
      eexists. cbn [xpath fst snd]. unfold arg_path. rewrite (arg_label_value e o vals i v He Hv). reflexivity.
  - apply Forall_flat_map. eapply Forall_impl; [|exact IH]. intros t H. apply H.
Qed.

Lemma exec_forest_label : forall c l pp po, Forall label_ok (exec_forest c pp po l).
Proof. intros c l pp po. apply Forall_flat_map, Forall_forall. intros t _. apply exec_node_label. Qed.

(** Every executed argument case is value number [i] of the argument list of the entry it names. *)
Definition value_ok (es : list any_entry) (x : xcase) : Prop :=
  match snd x with
  | Some (i, v) => exists e o vals, In e es /\ entry_id e = fst (fst x) /\ entry_runner e = RArgs o vals
                                    /\ nth_error vals (N.to_nat i) = Some v
  | None => exists e, In e es /\ entry_id e = fst (fst x) /\ entry_runner e = RPlain
  end.

Lemma keyed_case_value : forall c kf groups es e x,
  In e es -> In x (keyed_case c kf groups e) -> value_ok es x.
Proof.
  intros c kf groups es e x He Hx. unfold keyed_case, case_of in Hx. cbn [fst snd rekey rleaf_of] in Hx.
  destruct (leaf_ignored c _); [contradiction|].
  destruct (entry_runner e) as [|o vals] eqn:Hr.
  - destruct Hx as [Hx|[]]. subst x. exists e. auto.
  - apply in_flat_map in Hx. destruct Hx as [i [_ Hx]].
    destruct (arg_case_inv _ _ _ _ _ Hx) as [v [Hv Hxe]]. subst x. exists e, o, vals. auto.
Qed.

Section Sorted.
  Variable srt : list tree -> list tree.
  Hypothesis srt_perm : forall t, forest_perm t (srt t).

  Lemma label_value : forall c a benches groups,
    is_list a = false -> a <> ListTerse ->
    snd (run_action c srt a benches groups) = None /\
    Forall label_ok (executed (fst (run_action c srt a benches groups))).
  Proof.
    intros c a benches groups Ha Hb.
    destruct (run_action_exec srt srt_perm c a benches groups Ha Hb) as [Hp Hx].
    split; [exact Hp|]. rewrite Hx. apply exec_forest_label.
  Qed.

  (** The executed multiset is exactly the selected subset of the registered cases. *)
  Lemma selected_subset : forall c a benches groups,
    is_list a = false -> a <> ListTerse ->
    Permutation (executed (fst (run_action c srt a benches groups)))
                (filter (fun x => c_filter c (xpath x))
                        (flat_map (keyed_case c (attach_key benches groups) groups) (all_entries benches groups))).
  Proof.
    intros c a benches groups Ha Hb.
    destruct (run_selected srt srt_perm c a benches groups Ha Hb) as [_ Hx]. rewrite Hx.
    apply Permutation_filter, exec_keyed.
  Qed.

  Lemma received_value : forall c a benches groups,
    is_list a = false -> a <> ListTerse ->
    Forall (value_ok (all_entries benches groups)) (executed (fst (run_action c srt a benches groups))).
  Proof.
    intros c a benches groups Ha Hb. apply Forall_forall. intros x Hx.
    apply (Permutation_in x (selected_subset c a benches groups Ha Hb)) in Hx.
    apply filter_In in Hx. destruct Hx as [Hx _]. apply in_flat_map in Hx. destruct Hx as [e [He Hx]].
    exact (keyed_case_value c _ groups _ e x He Hx).
  Qed.
End Sorted.

Lemma dedup_nodup : forall l seen, NoDup (dedup l seen) /\ (forall x, In x (dedup l seen) -> ~ In x seen).
Proof.
  induction l as [|x tl IH]; intro seen; cbn [dedup]; [split; [constructor|intros ? []]|].
  destruct (existsb (N.eqb x) seen) eqn:E; [apply IH|].
  destruct (IH (x :: seen)) as [Hnd Hnot]. split.
  - constructor; [|exact Hnd]. intro Hin. apply (Hnot x Hin). left. reflexivity.
  - intros y [Hy|Hy].
    + subst y. intro Hin. assert (Ht : existsb (N.eqb x) seen = true).
      { apply existsb_exists. exists x. split; [exact Hin|apply N.eqb_refl]. }
      congruence.
    + intro Hin. apply (Hnot y Hy). right. exact Hin.
Qed.

Lemma dedup_complete : forall l seen x, In x l -> In x seen \/ In x (dedup l seen).
Proof.
  induction l as [|y tl IH]; intros seen x Hx; [contradiction|]. cbn [dedup].
  destruct (existsb (N.eqb y) seen) eqn:E.
  - destruct Hx as [Hx|Hx]; [|apply IH; exact Hx]. subst y. left.
    apply existsb_exists in E. destruct E as [z [Hz Hxz]]. apply N.eqb_eq in Hxz. subst. exact Hz.
  - destruct Hx as [Hx|Hx]; [subst; right; left; reflexivity|].
    destruct (IH (y :: seen) x Hx) as [[H|H]|H]; [subst; right; left; reflexivity|left; exact H|right; right; exact H].
Qed.

(** Each [BenchArgs] static is initialised exactly once per process, and every
    argument runner finds its list initialised. *)
Lemma evaluated_once : forall es,
  NoDup (args_evaluations es) /\
  (forall e o vals, In e es -> entry_runner e = RArgs o vals -> In o (args_evaluations es)).
Proof.
  intro es. unfold args_evaluations. split; [apply dedup_nodup|].
  intros e o vals He Hr.
  destruct (dedup_complete (flat_map args_owner es) [] o) as [[]|H]; [|exact H].
  apply in_flat_map. exists e. split; [exact He|]. unfold args_owner. rewrite Hr. left. reflexivity.
Qed.

(** All generic instantiations of one function share one argument list (one owner, the same values). *)
Lemma shared_by_instantiations : forall mp n b rows,
  expand_bench mp n b = Ok ([], [{| g_id := n; g_meta := bench_meta mp b; g_generic := Some rows |}],
                            n + 1 + N.of_nat (length (concat rows))) ->
  generic_is_empty (bd_types b) (bd_consts b) = false ->
  (bd_types b <> None \/ bd_consts b <> None) -> consts_compile (bd_consts b) ->
  forall e, In e (concat rows) -> ge_runner e = runner_of n (bd_args b).
Proof.
  intros mp n b rows H _ _ _ e. exact (expand_bench_runner mp n b _ _ rows e H eq_refl).
Qed.

Lemma suffixb_spec : forall suf s, suffixb suf s = true <-> exists pre, s = pre ++ suf.
Proof.
  intros suf. induction s as [|c tl IH]; cbn [suffixb].
  - rewrite orb_false_r. split; intro H.
    + apply str_eqb_spec in H. subst. exists []. reflexivity.
    + destruct H as [pre H]. symmetry in H. apply app_eq_nil in H. destruct H as [_ H]. subst. apply str_eqb_refl.
  - split; intro H.
    + apply orb_true_iff in H. destruct H as [H|H].
      * apply str_eqb_spec in H. subst. exists []. reflexivity.
      * apply IH in H. destruct H as [pre H]. exists (c :: pre). rewrite H. reflexivity.
    + destruct H as [pre H]. apply orb_true_iff. destruct pre as [|p pre].
      * left. cbn in H. subst. apply str_eqb_refl.
      * right. apply IH. cbn in H. inversion H. exists pre. reflexivity.
Qed.

Lemma c17_label_sb_spec : forall path v,
  c17_label_sb path v = true <-> exists base, path = base ++ s_colons ++ value_to_string v.
Proof. intros. unfold c17_label_sb. apply suffixb_spec. Qed.

(** Row labels under thread branches: the row of a case keeps the case's label
    and path whatever the number of thread counts; with two or more it is a parent
    with one leaf "t=N" per count below it, and the function receives the same
    argument for every count. *)
Lemma painted_run_threads : forall a id path arg first tcs,
  painted (run_threads a id path arg first tcs) = map (fun tc => (2, join_path path (thread_name tc))) tcs.
Proof.
  intros a id path arg first tcs. revert first. induction tcs as [|tc tl IH]; intro first; [reflexivity|].
  cbn [run_threads map]. unfold painted in *. rewrite flat_map_app, IH. destruct first, (is_bench a); reflexivity.
Qed.

Lemma painted_app : forall l1 l2, painted (l1 ++ l2) = painted l1 ++ painted l2.
Proof. intros. unfold painted. apply flat_map_app. Qed.

Lemma row_labels : forall tcs a id name path il arg,
  painted (run_bench tcs a id name path il arg)
  = match tcs with
    | _ :: _ :: _ => (0, path) :: map (fun tc => (2, join_path path (thread_name tc))) tcs
    | _ => [(2, path)]
    end.
Proof.
  intros tcs a id name path il arg. unfold run_bench.
  destruct tcs as [|t1 [|t2 tl]]; try (destruct (is_bench a); reflexivity).
  rewrite !painted_app, painted_run_threads. cbn [painted flat_map app]. rewrite app_nil_r. reflexivity.
Qed.

Definition invoked_args (l : list action) : list (N * option (N * value)) :=
  flat_map (fun x => match x with
                     | AInvoke id _ arg => [(id, arg)]
                     | AInvokeMore id _ arg _ => [(id, arg)]
                     | _ => [] end) l.

Lemma invoked_run_threads : forall a id path arg first tcs,
  invoked_args (run_threads a id path arg first tcs) = map (fun _ => (id, arg)) tcs.
Proof.
  intros a id path arg first tcs. revert first. induction tcs as [|tc tl IH]; intro first; [reflexivity|].
  cbn [run_threads map]. unfold invoked_args in *. rewrite flat_map_app, IH. destruct first, (is_bench a); reflexivity.
Qed.

Lemma same_argument_every_thread_count : forall tcs a id name path il arg,
  invoked_args (run_bench tcs a id name path il arg)
  = match tcs with _ :: _ :: _ => map (fun _ => (id, arg)) tcs | _ => [(id, arg)] end.
Proof.
  intros tcs a id name path il arg. unfold run_bench.
  destruct tcs as [|t1 [|t2 tl]]; try (destruct (is_bench a); reflexivity).
  unfold invoked_args. rewrite !flat_map_app. fold (invoked_args (run_threads a id path arg true (t1 :: t2 :: tl))).
  rewrite invoked_run_threads. cbn [flat_map app]. rewrite app_nil_r. reflexivity.
Qed.
