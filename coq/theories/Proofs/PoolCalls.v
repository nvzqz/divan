(** The ghost log of task calls.  [Inv2] relates the log to the control state
    (index [i] of the current broadcast is in the log iff the control state says
    it has been called), keeps the log duplicate free, freezes what was logged
    for returned broadcasts, and ties the return records to the script.
    Consequences: C06 once-per-index, call sites and returns-after-all. *)

From DivanV Require Import Model.Pool Proofs.Pool Proofs.ListFacts.
From Coq Require Import Arith Lia List Bool.
Import ListNotations.
Import PoolM.

Lemma call_eqb_eq a b : call_eqb a b = true <-> a = b.
Proof.
  destruct a as [a1 a2], b as [b1 b2]. unfold call_eqb. cbn.
  rewrite andb_true_iff, !Nat.eqb_eq. split; [intros [-> ->]; auto|intro H; inversion H; auto].
Qed.

Lemma vmem_In c v : vmem c v = true <-> In c v.
Proof.
  unfold vmem. rewrite existsb_exists. split.
  - intros (x & Hx & E). apply call_eqb_eq in E. now subst.
  - intro H. exists c. split; auto. now apply call_eqb_eq.
Qed.

Lemma called_caller s s' :
  ws s' = ws s -> cur s' = cur s -> caller_ran (cst s') = caller_ran (cst s) -> sent (cst s') = sent (cst s) ->
  forall i, called s' i = called s i.
Proof. intros H1 H2 H3 H4 [|j]; cbn; now rewrite ?H1, ?H2, ?H3, ?H4. Qed.

Lemma called_worker s s' j w w' :
  nth_error (ws s) j = Some w -> ws s' = set_nth j w' (ws s) -> cst s' = cst s -> cur s' = cur s ->
  is_wrun (cur s) w' = is_wrun (cur s) w ->
  forall i, called s' i = called s i.
Proof.
  intros Hj Hw Hc Hu Hr [|j']; cbn; rewrite Hc, ?Hu, ?Hw; auto.
  destruct (Nat.eq_dec j j') as [<-|N].
  - rewrite nth_error_set_nth_eq, Hj by apply (nth_error_lt _ _ _ Hj). now rewrite Hr.
  - now rewrite nth_error_set_nth_neq.
Qed.

Definition ret_ok (s : state) (r : ret) : Prop :=
  (if in_broadcast (cst s) then r_b r < cur s else r_b r <= cur s)
  /\ forall i, In (r_b r, i) (calls s) <-> i <= r_n r.

Record Inv2 (scr : list nat) (s : state) : Prop := {
  J_nodup : NoDup (calls s);
  J_le : forall d, In d (calls s) -> fst d <= cur s;
  J_pan : incl (panics s) (calls s);
  J_cur : in_broadcast (cst s) = true -> forall i, In (cur s, i) (calls s) <-> called s i = true;
  J_pos : in_broadcast (cst s) = true -> 1 <= cur s;
  J_ret : Forall (ret_ok s) (returned s);
  J_len : length (returned s) = if in_broadcast (cst s) then cur s - 1 else cur s;
  J_num : map r_b (returned s) = seq 1 (length (returned s));
  J_hist : map r_n (returned s) ++ (if in_broadcast (cst s) then [bcast_n (cst s)] else []) ++ script s = scr
}.

Lemma inv2_init scr : Inv2 scr (init scr).
Proof.
  constructor; cbn; auto.
  - constructor.
  - intros d [].
  - intros d [].
  - discriminate.
  - discriminate.
Qed.

Lemma called_begin s n rest i : called (st_begin s n rest) i = false.
Proof.
  destruct i as [|j]; cbn; [now destruct (Nat.eqb n 0)|].
  apply andb_false_intro1, Nat.ltb_ge. destruct (Nat.eqb n 0); cbn; lia.
Qed.

Lemma inv2_begin scr s n rest :
  Inv2 scr s -> cst s = CIdle -> script s = n :: rest -> Inv2 scr (st_begin s n rest).
Proof.
  intros J Hc Es.
  destruct (begin_cst n) as [B' N'].
  constructor; unfold st_begin; cbn.
  - apply J.
  - intros d X. apply (J_le _ _ J) in X. lia.
  - apply J.
  - intros _ i. split.
    + intro X. apply (J_le _ _ J) in X. cbn in X. lia.
    + intro X. change (called (st_begin s n rest) i = true) in X. now rewrite called_begin in X.
  - lia.
  - eapply Forall_impl; [|exact (J_ret _ _ J)]. intros r [R1 R2]. rewrite Hc in R1. cbn in R1.
    split; auto. cbn. rewrite B'. lia.
  - rewrite B'. pose proof (J_len _ _ J) as L. rewrite Hc in L. cbn in L. lia.
  - apply J.
  - rewrite B', N'. pose proof (J_hist _ _ J) as H. rewrite Hc, Es in H. cbn in H. exact H.
Qed.

(** The rendezvous hands the task to worker [S j]: it is now among those sent
    to, but has not called yet. *)
Lemma called_send s j n :
  cst s = CSend (S j) n -> nth_error (ws s) j = Some WIdle ->
  forall i, called (st_send s (S j) n) i = called s i.
Proof.
  intros Hc Hj.
  assert (Sn : sent (if Nat.eqb (S j) n then CRun n else CSend (S (S j)) n) = S (S j)).
  { destruct (Nat.eqb_spec (S j) n); subst; reflexivity. }
  intros [|j']; cbn; rewrite Hc; [now destruct (Nat.eqb (S j) n)|]. rewrite Sn. cbn.
  destruct (Nat.eq_dec j j') as [<-|N].
  - rewrite nth_error_set_nth_eq by apply (nth_error_lt _ _ _ Hj). rewrite Hj. cbn.
    now rewrite Nat.eqb_refl, Nat.ltb_irrefl, andb_false_r.
  - rewrite nth_error_set_nth_neq by auto. f_equal.
    destruct (Nat.ltb_spec (S j') (S (S j))), (Nat.ltb_spec (S j') (S j)); auto; lia.
Qed.

Lemma all_called_at_return scr s n :
  Inv s -> Inv2 scr s -> cst s = CLoad n -> rc s = 0 ->
  forall i, In (cur s, i) (calls s) <-> i <= n.
Proof.
  intros I J Hc Hr i.
  destruct (rc_at s _ I Hc) as (R1 & R2).
  assert (Z : Forall (fun w => pre_dec (cur s) w = false) (ws s)).
  { apply count_zero_Forall. unfold count_pre in R1. lia. }
  rewrite (J_cur _ _ J) by now rewrite Hc.
  destruct i as [|j]; cbn; rewrite Hc; cbn.
  - split; auto. lia.
  - destruct (nth_error (ws s) j) as [w|] eqn:E.
    + pose proof (Forall_nth_error _ _ _ _ Z E) as Pw.
      assert (Wr : is_wrun (cur s) w = false) by (destruct w; cbn in *; auto).
      rewrite Wr. cbn. rewrite andb_true_r. rewrite Nat.ltb_lt. lia.
    + apply nth_error_None in E. rewrite andb_false_r. split; [discriminate|lia].
Qed.

Lemma inv2_return scr s n cv tok :
  Inv s -> Inv2 scr s -> cst s = CLoad n -> rc s = 0 -> Inv2 scr (do_return s n cv tok).
Proof.
  intros I J Hc Hr.
  assert (B : in_broadcast (cst s) = true) by now rewrite Hc.
  pose proof (J_pos _ _ J B) as P.
  pose proof (J_len _ _ J) as L. rewrite B in L.
  constructor; unfold do_return; cbn; try apply J.
  - discriminate.
  - discriminate.
  - apply Forall_app. split.
    + eapply Forall_impl; [|exact (J_ret _ _ J)]. intros r [R1 R2]. rewrite B in R1. split; auto. cbn. lia.
    + constructor; [|constructor]. split; cbn; [lia|]. eapply all_called_at_return; eauto.
  - rewrite app_length. cbn. lia.
  - rewrite map_app, app_length. cbn. rewrite seq_app. rewrite <- (J_num _ _ J). cbn. f_equal. f_equal. lia.
  - pose proof (J_hist _ _ J) as H. rewrite B, Hc in H. cbn in H. rewrite map_app. cbn.
    rewrite <- app_assoc. exact H.
Qed.

Lemma at_wrun s j b :
  Inv s -> nth_error (ws s) j = Some (WRun b) ->
  b = cur s /\ in_broadcast (cst s) = true /\ S j < sent (cst s) /\ called s (S j) = false.
Proof.
  intros I Hj. destruct (wf_at s _ _ I Hj) as [-> Al]. repeat split.
  - now rewrite <- (I_alive s I).
  - exact (I_sent s I j _ Hj eq_refl).
  - cbn. rewrite Hj. cbn. now rewrite Nat.eqb_refl, andb_false_r.
Qed.

(** All that [Inv2] and [InvS] read of the state is touched by a step in one of
    four ways: not at all, by one call appended to the log, by the begin of a
    broadcast, by its return. *)
Inductive log_effect (s : state) : state -> Prop :=
| L_same s' :
    calls s' = calls s -> panics s' = panics s -> slots s' = slots s -> returned s' = returned s ->
    cur s' = cur s -> script s' = script s ->
    in_broadcast (cst s') = in_broadcast (cst s) -> bcast_n (cst s') = bcast_n (cst s) ->
    (in_broadcast (cst s) = true -> forall i, called s' i = called s i) ->
    log_effect s s'
| L_call s' x (p : bool) :
    in_broadcast (cst s) = true -> called s x = false -> x <= bcast_n (cst s) ->
    calls s' = calls s ++ [(cur s, x)] -> panics s' = (if p then panics s ++ [(cur s, x)] else panics s) ->
    slots s' = (if p then slots s else set_nth x (Some x) (slots s)) -> returned s' = returned s ->
    cur s' = cur s -> script s' = script s ->
    in_broadcast (cst s') = in_broadcast (cst s) -> bcast_n (cst s') = bcast_n (cst s) ->
    (forall i, called s' i = if Nat.eqb i x then true else called s i) ->
    log_effect s s'
| L_begin n rest : cst s = CIdle -> script s = n :: rest -> log_effect s (st_begin s n rest)
| L_return n cv tok : cst s = CLoad n -> rc s = 0 -> log_effect s (do_return s n cv tok).

Lemma step_log_effect c s l s' : good c -> Inv s -> step c s l = Some s' -> log_effect s s'.
Proof.
  intros G I H.
  destruct (step_inv _ _ _ _ H) as [n rest Hc Es|j n Hc Hj|n p Hc|n Hc|n Hc Ht|n Hc|j b p Hj|j b Hj|j b Hj|j b Hj|Hc Es|j Hc Hj];
    rewrite ?(leave_good c s G), ?(good_loop c G).
  (* the pool is dropped; a worker exits *)
  11, 12: apply L_same; try reflexivity; cbn; rewrite ?Hc; auto; discriminate.
  (* [park] returns, by token or spuriously *)
  5, 6: apply L_same; try reflexivity; cbn; try (now rewrite Hc);
    intros _; apply called_caller; cbn; now rewrite ?Hc.
  (* past its call a worker changes nothing but its own state *)
  6-8: apply L_same; try reflexivity; intros _; eapply (called_worker s _ j _ _ Hj); try reflexivity.
  - now apply L_begin.
  - apply L_same; try reflexivity; cbn; try (rewrite Hc; now destruct (Nat.eqb (S j) n)).
    intros _. now apply called_send.
  - apply (L_call s _ 0 p); try reflexivity; cbn; try (now rewrite Hc); [rewrite Hc; cbn; lia|].
    intros [|i]; cbn; auto. now rewrite Hc.
  - destruct (Nat.eqb_spec (rc s) 0); [now apply L_return|].
    apply L_same; try reflexivity; cbn; try (now rewrite Hc).
    intros _. apply called_caller; cbn; now rewrite ?Hc.
  - destruct (at_wrun s j b I Hj) as (-> & B & Sn & NC). pose proof (sent_le_n s I) as Le.
    apply (L_call s _ (S j) p); try reflexivity; auto; [lia|].
    intros [|j']; cbn; auto.
    destruct (Nat.eqb_spec (S j') (S j)) as [E|E].
    + injection E as ->. rewrite nth_error_set_nth_eq by apply (nth_error_lt _ _ _ Hj). cbn.
      rewrite andb_true_r. apply Nat.ltb_lt. exact Sn.
    + rewrite nth_error_set_nth_neq by congruence. reflexivity.
  - cbn. now destruct (Nat.eqb (rc s) (c_unpark_old c)).
Qed.

Theorem inv2_step c scr s l s' : good c -> Inv s -> Inv2 scr s -> step c s l = Some s' -> Inv2 scr s'.
Proof.
  intros G I J H.
  destruct (step_log_effect c s l s' G I H)
    as [s' Hc Hp _ Hr Hu Hs Hi Hn Hcal|s' x p B Hx _ Hc Hp _ Hr Hu Hs Hi Hn Hcal|n rest Hc Es|n cv tok Hc Hr].
  - constructor.
    + rewrite Hc. apply J.
    + rewrite Hc, Hu. apply J.
    + rewrite Hp, Hc. apply J.
    + rewrite Hi, Hu, Hc. intros B i. rewrite Hcal by auto. now apply (J_cur _ _ J).
    + rewrite Hi, Hu. apply J.
    + rewrite Hr. eapply Forall_impl; [|exact (J_ret _ _ J)]. intros r [R1 R2]. split.
      * now rewrite Hi, Hu.
      * now rewrite Hc.
    + rewrite Hr, Hi, Hu. apply J.
    + rewrite Hr. apply J.
    + rewrite Hr, Hi, Hn, Hs. apply J.
  - assert (Nin : ~ In (cur s, x) (calls s)).
    { intro X. apply (J_cur _ _ J B) in X. congruence. }
    constructor.
    + rewrite Hc. apply NoDup_snoc; auto. apply J.
    + rewrite Hc, Hu. intros d. rewrite in_snoc. intros [X| ->]; [now apply (J_le _ _ J)|]. cbn. lia.
    + rewrite Hp, Hc. destruct p.
      * intros d. rewrite !in_snoc. intros [X| ->]; auto. left. now apply (J_pan _ _ J).
      * intros d X. rewrite in_snoc. left. now apply (J_pan _ _ J).
    + rewrite Hu, Hc. intros _ i. rewrite in_snoc, Hcal. destruct (Nat.eqb i x) eqn:E.
      * apply Nat.eqb_eq in E. subst. intuition.
      * apply Nat.eqb_neq in E. rewrite (J_cur _ _ J B). split; [intros [X|X]; auto; congruence|auto].
    + rewrite Hi, Hu. apply J.
    + rewrite Hr. eapply Forall_impl; [|exact (J_ret _ _ J)]. intros r [R1 R2]. rewrite B in R1. split.
      * rewrite Hi, B, Hu. exact R1.
      * rewrite Hc. intros i. rewrite in_snoc, <- R2. split; [intros [X|X]; auto; inversion X; lia|auto].
    + rewrite Hr, Hi, Hu. apply J.
    + rewrite Hr. apply J.
    + rewrite Hr, Hi, Hn, Hs. apply J.
  - now apply inv2_begin.
  - now apply inv2_return.
Qed.

Theorem inv2_reachable c scr s : good c -> reachable c scr s -> Inv2 scr s.
Proof.
  intros G R. induction R.
  - apply inv2_init.
  - eapply inv2_step; eauto. eapply inv_reachable; eauto.
Qed.

Lemma count_call_once c l : NoDup l -> In c l -> count_call c l = 1.
Proof.
  unfold count_call. induction l as [|h t IH]; cbn; [intros _ []|].
  intros N H. inversion N; subst.
  destruct (call_eqb c h) eqn:E.
  - apply call_eqb_eq in E. subst. rewrite filter_none; [reflexivity|].
    intros x Hx. apply not_true_iff_false. rewrite call_eqb_eq. intros <-. contradiction.
  - destruct H as [->|H]; [|now apply IH].
    assert (X : call_eqb c c = true) by now apply call_eqb_eq. congruence.
Qed.

Lemma once_per_index_intro s b n :
  NoDup (calls s) -> (forall i, In (b, i) (calls s) <-> i <= n) -> once_per_index s b n = true.
Proof.
  intros N H. unfold once_per_index. apply andb_true_intro. split.
  - apply forallb_forall. intros i Hi. apply in_seq in Hi. apply Nat.eqb_eq.
    apply count_call_once; auto. apply H. lia.
  - apply Nat.eqb_eq.
    set (F := filter (fun d : call => Nat.eqb (fst d) b) (calls s)).
    set (M := map (pair b) (seq 0 (S n))).
    assert (NF : NoDup F) by (apply NoDup_filter; auto).
    assert (NM : NoDup M).
    { apply NoDup_map_inj; [|apply seq_NoDup]. intros x y _ _ E. now inversion E. }
    assert (FM : forall d, In d F <-> In d M).
    { intros [b' i]. unfold F, M. rewrite filter_In, in_map_iff. cbn [fst]. rewrite Nat.eqb_eq. split.
      - intros [X ->]. exists i. split; auto. apply in_seq. apply H in X. lia.
      - intros (i' & E & X). inversion E; subst. apply in_seq in X. split; auto. apply H. lia. }
    assert (L1 : length F <= length M) by (apply NoDup_incl_length; auto; intros d; apply FM).
    assert (L2 : length M <= length F) by (apply NoDup_incl_length; auto; intros d; apply FM).
    assert (LM : length M = S n) by (unfold M; now rewrite map_length, seq_length).
    change (length F = S n). lia.
Qed.

(** Every returned broadcast [r_b] with [r_n] auxiliary threads had each index
    [0..=r_n] called exactly once and nothing else; this stays true for the
    rest of the execution. *)
Lemma once_per_index_inv scr s r :
  Inv2 scr s -> In r (returned s) ->
  once_per_index s (r_b r) (r_n r) = true
  /\ NoDup (calls s) /\ (forall i, In (r_b r, i) (calls s) <-> i <= r_n r).
Proof.
  intros J Hr. destruct (proj1 (Forall_forall _ _) (J_ret _ _ J) r Hr) as [_ H].
  pose proof (J_nodup _ _ J) as N. auto using once_per_index_intro.
Qed.

Theorem once_per_index_returned c scr s r :
  good c -> reachable c scr s -> In r (returned s) ->
  once_per_index s (r_b r) (r_n r) = true
  /\ NoDup (calls s) /\ (forall i, In (r_b r, i) (calls s) <-> i <= r_n r).
Proof. intros G R. apply (once_per_index_inv scr). now apply (inv2_reachable c). Qed.

(** Index 0 is called by the caller and index [k >= 1] by worker [k]: the only
    transitions that log a call. *)
Theorem call_sites c s l s' :
  step c s l = Some s' ->
  calls s' = calls s
  \/ (exists p, l = ERun0 p /\ calls s' = calls s ++ [(cur s, 0)])
  \/ (exists k p b, l = EWRun k p /\ getw s k = Some (WRun b) /\ 1 <= k /\ calls s' = calls s ++ [(b, k)]).
Proof.
  intro H. destruct (step_inv _ _ _ _ H) as [n rest Hc Es|j n Hc Hj|n p Hc|n Hc|n Hc Ht|n Hc|j b p Hj|j b Hj|j b Hj|j b Hj|Hc Es|j Hc Hj];
    try (left; reflexivity).
  - right. left. eauto.
  - left. now destruct (leave c s).
  - left. now destruct (c_loop c).
  - left. now destruct (c_loop c).
  - right. right. exists (S j), p, b. repeat split; auto. lia.
Qed.

Lemma done_script c scr s : reachable c scr s -> cst s = CDone -> script s = [].
Proof.
  induction 1 as [|s l s' R IH H]; [discriminate|].
  destruct (step_inv _ _ _ _ H); cbn; auto; try discriminate.
  - now destruct (Nat.eqb n 0).
  - now destruct (Nat.eqb (S j) n).
  - now destruct (leave c s).
  - now destruct (c_loop c).
  - now destruct (c_loop c).
Qed.

Theorem returned_is_script c scr s :
  good c -> reachable c scr s -> final s = true ->
  map r_n (returned s) = scr /\ map r_b (returned s) = seq 1 (length scr).
Proof.
  intros G R F. pose proof (inv2_reachable _ _ _ G R) as J.
  destruct (final_inv s F) as [Hc _].
  pose proof (J_hist _ _ J) as H. rewrite Hc, (done_script c scr s R Hc), app_nil_r in H. cbn in H.
  split; auto.
  rewrite (J_num _ _ J). f_equal. rewrite <- H. now rewrite map_length.
Qed.

(** The caller leaves the wait loop (any step from inside a broadcast to
    outside) only when the counter is zero, no worker is still before its
    decrement, and all [n + 1] calls have been made. *)
Theorem returns_after_all c scr s l s' :
  good c -> reachable c scr s -> step c s l = Some s' ->
  in_broadcast (cst s) = true -> in_broadcast (cst s') = false ->
  rc s = 0 /\ Forall (fun w => any_pre w = false) (ws s)
  /\ (forall i, In (cur s, i) (calls s) <-> i <= bcast_n (cst s))
  /\ exists r, returned s' = returned s ++ [r] /\ r_b r = cur s /\ r_n r = bcast_n (cst s).
Proof.
  intros G R H B B'.
  pose proof (inv_reachable _ _ _ G R) as I. pose proof (inv2_reachable _ _ _ G R) as J.
  pose proof (inv_step _ _ _ _ G I H) as I'.
  destruct (step_log_effect c s l s' G I H)
    as [s' _ _ _ _ _ _ Hi _ _|s' x p _ _ _ _ _ _ _ _ _ Hi _ _|n rest Hc _|n cv tok Hc Hr]; try congruence.
  - rewrite Hc in B. discriminate.
  - split; auto. split; [|split].
    + exact (no_pre_idle _ I' B').
    + rewrite Hc. cbn. eapply all_called_at_return; eauto.
    + eexists. split; [reflexivity|]. rewrite Hc. cbn. auto.
Qed.
