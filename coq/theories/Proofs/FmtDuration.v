(** Lemmas about Model/FmtDuration.v: the duration display equals the
    declarative specification for every picosecond value (all of [N]), never
    panics, never overflows its 128-bit intermediate; meaning of [duration_sb].
    The choice of unit rests on a general fact about sorted tables (section
    [Choice]), used again for the prefixes in Proofs/FmtScale.v. *)
From DivanV Require Import Base.Res Generated.Consts Model.FmtF64 Model.FmtDuration Proofs.FmtF64 Proofs.ListFacts.
From Coq Require Import ZifyBool.
Local Open Scope N_scope.

(** [picos::DAY], the value of [day_picos]. *)
Definition day_v : N := 86400000000000000.

Lemma day_picos_eq : day_picos = Ok day_v.
Proof. reflexivity. Qed.

(** Up to seven significant figures the power of ten is far from saturating. *)
Lemma pow10_sat128_small : forall sig, sig <= 7 -> pow10_sat128 sig = 10 ^ sig.
Proof. intros. unfold pow10_sat128. destruct (39 <=? sig) eqn:E; [lia|reflexivity]. Qed.

Lemma pow10_le_7 : forall sig, sig <= 7 -> 10 ^ sig <= 10 ^ 7.
Proof. intros. apply N.pow_le_mono_r; lia. Qed.

Lemma mul_lt_le : forall p x P X, p < P -> x <= X -> 0 < X -> p * x < P * X.
Proof.
  intros p x P X Hp Hx HX. apply N.le_lt_trans with (p * X);
    [now apply N.mul_le_mono_l|now apply N.mul_lt_mono_pos_r].
Qed.

Lemma float_path_no_overflow : forall sig p, sig <= 7 -> p < day_v * 10 ^ sig ->
  p * pow10_sat128 sig < 2 ^ 128.
Proof.
  intros sig p Hs Hp. rewrite pow10_sat128_small by exact Hs.
  pose proof (pow10_le_7 sig Hs) as H7. unfold day_v in Hp.
  apply N.lt_trans with (86400000000000000 * 10 ^ 7 * 10 ^ 7); [apply mul_lt_le; lia|lia].
Qed.

(** Below [10^sig] days the float path, whose operand must stay below 10^15;
    from there on the integer path, where the unit is the day. *)
Lemma fmt_duration_at_spec : forall sig width p i u suf,
  sig <= 7 -> scale_picos i = Ok u -> scale_suffix i = Ok suf -> u <> 0 ->
  (p < day_v * 10 ^ sig -> p * 10 ^ sig < u * 10 ^ 15) ->
  (day_v * 10 ^ sig <= p -> u = day_v) ->
  fmt_duration_at sig width p i = FOk (fill_to width (trunc_numeral p u sig ++ [ch_space] ++ suf)).
Proof.
  intros sig width p i u suf Hs Hu Hsuf Hu0 Hfloat Hint.
  unfold fmt_duration_at. rewrite Hu, Hsuf, day_picos_eq. cbn [fbind].
  pose proof (pow10_le_7 sig Hs) as H7.
  destruct (N.lt_ge_cases p (day_v * 10 ^ sig)) as [Hp|Hp].
  - pose proof (float_path_no_overflow sig p Hs Hp) as Hov. specialize (Hfloat Hp).
    rewrite pow10_sat128_small in * by exact Hs.
    rewrite (proj2 (N.leb_gt _ _) Hp), andb_false_r.
    unfold checked_mul. rewrite (proj2 (N.ltb_lt _ _) Hov). cbn [fbind].
    unfold checked_div. rewrite (proj2 (N.eqb_neq _ _) Hu0). cbn [fbind].
    apply N.div_lt_upper_bound, N.ltb_lt in Hfloat; [|exact Hu0].
    unfold f64_exact_guard. rewrite Hfloat, (proj2 (N.leb_le sig 22)) by lia.
    unfold f64_display_exact. rewrite format_trunc; [reflexivity|lia].
  - rewrite (Hint Hp), pow10_sat128_small by exact Hs.
    assert (Hov : day_v * 10 ^ sig < 2 ^ 128) by (unfold day_v; lia).
    rewrite (proj2 (N.ltb_lt _ _) Hov), (proj2 (N.leb_le _ _) Hp). cbn [andb].
    unfold checked_div. change (day_v =? 0) with false. cbn [fbind].
    rewrite trunc_numeral_int; [reflexivity|].
    apply N.div_le_lower_bound; [discriminate|exact Hp].
Qed.

Lemma scale_walk_ge : forall tbl p i, i <= scale_walk tbl p i.
Proof.
  induction tbl as [|t r IH]; intros p i; cbn [scale_walk]; [lia|].
  destruct (p <? t); [lia|]. specialize (IH p (i + 1)). lia.
Qed.

(** [scale_walk] returns the position of the first threshold above [p]; the
    specification folds over the entries and keeps the last one whose key does
    not exceed [p].  On a table sorted by key these are the same entry. *)
Section Choice.
  Context {A : Type} (key : A -> N) (p : N).

  Definition pick (acc u : A) : A := if key u <=? p then u else acc.

  Lemma pick_same : forall a, pick a a = a.
  Proof. intros. unfold pick. now destruct (key a <=? p). Qed.

  Lemma pick_none : forall us acc, Forall (fun v => p < key v) us -> fold_left pick us acc = acc.
  Proof.
    intros us acc H. induction H as [|v us Hv _ IH]; cbn [fold_left]; [reflexivity|].
    unfold pick at 2. now rewrite (proj2 (N.leb_gt _ _) Hv).
  Qed.

  Lemma walk_pick : forall us acc i, ForallOrdPairs (fun a b => key a <= key b) us ->
    nth_error (acc :: us) (N.to_nat (scale_walk (map key us) p i - i)) = Some (fold_left pick us acc).
  Proof.
    intros us acc i H. revert acc i.
    induction H as [|u r Hu _ IH]; intros acc i; cbn [map scale_walk fold_left].
    - now rewrite N.sub_diag.
    - change (pick acc u) with (if key u <=? p then u else acc).
      destruct (N.ltb_spec p (key u)) as [Hlt|Hge].
      + (* every later key is at least [key u], so above [p] *)
        rewrite N.sub_diag, (proj2 (N.leb_gt _ _) Hlt), pick_none; [reflexivity|].
        eapply Forall_impl; [|exact Hu]. cbn beta. intros v Hv. lia.
      + rewrite (proj2 (N.leb_le _ _) Hge). pose proof (scale_walk_ge (map key r) p (i + 1)).
        replace (N.to_nat (scale_walk (map key r) p (i + 1) - i))
          with (S (N.to_nat (scale_walk (map key r) p (i + 1) - (i + 1)))) by lia.
        apply IH.
  Qed.

  Lemma pick_spec : forall us acc, ForallOrdPairs (fun a b => key a <= key b) (acc :: us) ->
    let r := fold_left pick us acc in
    In r (acc :: us) /\ (r = acc \/ key r <= p) /\
    forall v, In v (acc :: us) -> key v <= p -> key v <= key r.
  Proof.
    induction us as [|u us IH]; intros acc H; cbn [fold_left].
    - split; [now left|]. split; [now left|]. intros v [<-|[]] _. apply N.le_refl.
    - inversion H as [|? ? Hacc Hus]; subst. inversion Hacc as [|? ? Hau Haus]; subst.
      change (pick acc u) with (if key u <=? p then u else acc).
      destruct (N.leb_spec (key u) p) as [Hu|Hu].
      + destruct (IH u Hus) as (Hin & Hle & Hmax).
        split; [now right|]. split; [right; now destruct Hle as [->|]|].
        intros v [<-|Hv] Hvp; [|now apply Hmax].
        apply N.le_trans with (key u); [exact Hau|apply Hmax; [now left|exact Hu]].
      + assert (H' : ForallOrdPairs (fun a b => key a <= key b) (acc :: us))
          by (constructor; [exact Haus|now inversion Hus]).
        destruct (IH acc H') as (Hin & Hle & Hmax).
        split; [destruct Hin as [<-|Hin]; [now left|now right; right]|]. split; [exact Hle|].
        intros v [<-|[<-|Hv]] Hvp; [apply Hmax; [now left|exact Hvp]|lia|apply Hmax; [now right|exact Hvp]].
  Qed.
End Choice.

Lemma scale_index_cases : forall p,
  (p < 1000 /\ scale_index p = 0) \/
  (1000 <= p < 1000000 /\ scale_index p = 1) \/
  (1000000 <= p < 1000000000 /\ scale_index p = 2) \/
  (1000000000 <= p < 1000000000000 /\ scale_index p = 3) \/
  (1000000000000 <= p < 60000000000000 /\ scale_index p = 4) \/
  (60000000000000 <= p < 3600000000000000 /\ scale_index p = 5) \/
  (3600000000000000 <= p < 86400000000000000 /\ scale_index p = 6) \/
  (86400000000000000 <= p /\ scale_index p = 7).
Proof.
  intros p. unfold scale_index, unit_picos_table. cbn [scale_walk].
  destruct (N.ltb_spec p 1000); [left; auto|right].
  destruct (N.ltb_spec p 1000000); [left; auto|right].
  destruct (N.ltb_spec p 1000000000); [left; auto|right].
  destruct (N.ltb_spec p 1000000000000); [left; auto|right].
  destruct (N.ltb_spec p 60000000000000); [left; auto|right].
  destruct (N.ltb_spec p 3600000000000000); [left; auto|right].
  destruct (N.ltb_spec p 86400000000000000); [left; auto|right; auto].
Qed.

Lemma spec_units_sorted : ForallOrdPairs (fun a b : N * str => fst a <= fst b) spec_units.
Proof. repeat (constructor; [repeat (constructor; [discriminate|]); constructor|]). constructor. Qed.

(** The fold of [spec_unit] starts from the first entry of its table, so it
    is the fold of section [Choice] over the rest. *)
Lemma spec_unit_pick : forall sig p,
  spec_unit sig p =
  let pk := fold_left (pick fst p) (tl spec_units) spec_ps in
  if (fst pk =? 1) && (3 <? sig) then spec_ns else pk.
Proof.
  intros sig p. unfold spec_unit.
  change (fold_left _ spec_units spec_ps) with (fold_left (pick fst p) (spec_ps :: tl spec_units) spec_ps).
  cbn [fold_left]. now rewrite pick_same.
Qed.

Lemma pick_by_index : forall p,
  fold_left (pick fst p) (tl spec_units) spec_ps = nth (N.to_nat (scale_index p)) spec_units spec_ps.
Proof.
  intros p. symmetry. apply nth_error_nth. rewrite <- (N.sub_0_r (scale_index p)).
  apply (walk_pick fst p (tl spec_units) spec_ps 0).
  pose proof spec_units_sorted as Hs. now inversion Hs.
Qed.

Lemma unit_choice : forall sig p,
  let i := if (scale_index p =? 0) && (3 <? sig) then 1 else scale_index p in
  let u := spec_unit sig p in
  scale_picos i = Ok (fst u) /\ scale_suffix i = Ok (snd u) /\
  (p < day_v -> p < 1000 * fst u) /\ (day_v <= p -> fst u = day_v).
Proof.
  intros sig p i u. pose proof (spec_unit_pick sig p) as Hu. fold u in Hu. rewrite pick_by_index in Hu.
  clearbody u. subst i. unfold day_v.
  destruct (scale_index_cases p) as [[H E]|[[H E]|[[H E]|[[H E]|[[H E]|[[H E]|[[H E]|[H E]]]]]]]];
  rewrite E in *; clear E;
  cbv [N.to_nat Pos.to_nat Pos.iter_op Nat.add nth spec_units] in Hu; cbn [fst N.eqb Pos.eqb andb] in *.
  1: destruct (3 <? sig).
  all: subst u; cbn [fst snd spec_ns]; (split; [reflexivity|]); (split; [reflexivity|]); lia.
Qed.

Lemma spec_unit_largest : forall sig p,
  In (spec_unit sig p) spec_units /\
  (1000 <= p -> fst (spec_unit sig p) <= p /\
                forall u, In u spec_units -> fst u <= p -> fst u <= fst (spec_unit sig p)) /\
  (p < 1000 -> spec_unit sig p = if 3 <? sig then spec_ns else spec_ps).
Proof.
  intros sig p. rewrite spec_unit_pick.
  destruct (pick_spec fst p (tl spec_units) spec_ps spec_units_sorted) as (Hin & Hle & Hmax).
  set (pk := fold_left (pick fst p) (tl spec_units) spec_ps) in *. cbv zeta. split; [|split].
  - destruct (_ && _); [right; now left|exact Hin].
  - intros Hp. assert (H1 : 1000 <= fst pk) by (apply (Hmax spec_ns); [right; now left|exact Hp]).
    rewrite (proj2 (N.eqb_neq (fst pk) 1)) by lia.
    split; [destruct Hle as [E|Hle]; [rewrite E in H1; exfalso; now apply H1|exact Hle]|exact Hmax].
  - intros Hp. replace pk with spec_ps; [reflexivity|]. symmetry. apply pick_none.
    repeat (constructor; [cbn [fst]; lia|]). constructor.
Qed.

Lemma spec_unit_props : forall sig p,
  let u := spec_unit sig p in fst u <> 0 /\ ~ In 78 (snd u) /\ ~ In 102 (snd u).
Proof.
  intros sig p. generalize (spec_unit sig p) (proj1 (spec_unit_largest sig p)).
  apply Forall_forall. repeat (constructor; [cbn [fst snd In]; lia|]). constructor.
Qed.

(** On the float path the integer handed to [f64] stays below 10^15: below a
    day the quotient by the unit is below 1000, from a day on it is below
    [10^sig]. *)
Lemma float_operand_bound : forall sig p, sig <= 7 -> p < day_v * 10 ^ sig ->
  p * 10 ^ sig < fst (spec_unit sig p) * 10 ^ 15.
Proof.
  intros sig p Hs Hp. destruct (unit_choice sig p) as (_ & _ & Hlt & Hge).
  pose proof (pow10_le_7 sig Hs) as H7. revert Hlt Hge Hp H7.
  generalize (fst (spec_unit sig p)) (10 ^ sig). unfold day_v. intros u X Hlt Hge Hp H7.
  assert (Hu : p < u * 10 ^ 8)
    by (destruct (N.lt_ge_cases p 86400000000000000) as [H|H]; [specialize (Hlt H)|rewrite (Hge H)]; lia).
  replace (u * 10 ^ 15) with (u * 10 ^ 8 * 10 ^ 7) by lia. apply mul_lt_le; lia.
Qed.

Lemma fmt_duration_with_spec : forall prec width p,
  sig_of prec <= 7 ->
  fmt_duration_with prec width p = FOk (spec_duration_string (sig_of prec) width p).
Proof.
  intros prec width p Hs. unfold fmt_duration_with, spec_duration_string.
  change fmt_pico_as_nano_above with 3.
  destruct (unit_choice (sig_of prec) p) as (Hu & Hsuf & _ & Hday).
  pose proof (float_operand_bound (sig_of prec) p Hs) as Hn.
  pose proof (spec_unit_props (sig_of prec) p) as [Hnz _].
  destruct (spec_unit (sig_of prec) p) as [u suf]. cbn [fst snd] in *.
  apply fmt_duration_at_spec; auto.
  intros Hge. apply Hday. pose proof (pow10_pos (sig_of prec)). unfold day_v in *. lia.
Qed.

Lemma fmt_duration_spec : forall p, fmt_duration p = FOk (spec_duration_string 4 None p).
Proof. intros p. apply (fmt_duration_with_spec None None p). unfold sig_of, fmt_default_sig_figs. lia. Qed.

(** Never a panic, never [FInexact]. *)
Lemma fmt_duration_total : forall p, exists s, fmt_duration p = FOk s.
Proof. intros p. eexists. apply fmt_duration_spec. Qed.

Lemma fmt_duration_with_total : forall prec width p, sig_of prec <= 7 ->
  exists s, fmt_duration_with prec width p = FOk s.
Proof. intros. eexists. now apply fmt_duration_with_spec. Qed.

(** The integer handed to [f64] on the float path (default precision) is
    below 10^15 < 2^53, so the conversion is exact. *)
Lemma float_operand_small : forall p, p < day_v * 10 ^ 4 ->
  p * 10 ^ 4 / fst (spec_unit 4 p) < 10 ^ 15 /\ 10 ^ 15 < 2 ^ 53.
Proof.
  intros p Hp. split; [|lia]. apply N.div_lt_upper_bound; [apply spec_unit_props|].
  apply float_operand_bound; [lia|exact Hp].
Qed.

Lemma fill_to_split : forall width num suffix,
  fill_to width (num ++ [ch_space] ++ suffix) =
  num ++ ch_space :: suffix ++
    repeat_byte ch_space (N.to_nat (match width with None => 0 | Some w => w - (len num + 1 + len suffix) end)).
Proof.
  intros width num suffix. unfold fill_to.
  assert (Hl : len (num ++ [ch_space] ++ suffix) = len num + 1 + len suffix).
  { rewrite !len_app, len_cons, len_nil. lia. }
  destruct width as [w|].
  - rewrite Hl. destruct (len num + 1 + len suffix <=? w) eqn:E.
    + rewrite <- !app_assoc. reflexivity.
    + replace (w - (len num + 1 + len suffix)) with 0 by lia. cbn [N.to_nat repeat_byte repeat].
      rewrite app_nil_r. reflexivity.
  - cbn [N.to_nat repeat_byte repeat]. rewrite app_nil_r. reflexivity.
Qed.

Lemma duration_sb_spec : forall sig width p out,
  duration_sb sig width p out = true <-> out = FOk (spec_duration_string sig width p).
Proof.
  intros sig width p out. unfold duration_sb, spec_duration_string.
  destruct (spec_unit sig p) as [u suffix]. rewrite fill_to_split.
  destruct out as [s| |]; [|split; intros; discriminate|split; intros; discriminate].
  rewrite (numeral_then_sb s p u sig (fun num => suffix ++ repeat_byte ch_space (N.to_nat
            match width with None => 0 | Some w => w - (len num + 1 + len suffix) end))).
  split; [now intros ->|now intros [= ->]].
Qed.

Lemma duration_model_sb : forall prec width p, sig_of prec <= 7 ->
  duration_sb (sig_of prec) width p (fmt_duration_with prec width p) = true.
Proof. intros. apply duration_sb_spec. now apply fmt_duration_with_spec. Qed.

Lemma duration_trunc : forall p,
  let '(u, suffix) := spec_unit 4 p in
  let d := len (digits_of (p / u)) in
  let k := 4 - d in
  fmt_duration p = FOk (render_fix (p * 10 ^ k / u) k ++ [ch_space] ++ suffix).
Proof.
  intros p. pose proof (fmt_duration_spec p) as H. unfold spec_duration_string in H.
  destruct (spec_unit 4 p) as [u suffix]. exact H.
Qed.

Lemma duration_with_trunc : forall prec width p,
  sig_of prec <= 7 ->
  let sig := sig_of prec in
  let '(u, suffix) := spec_unit sig p in
  let d := len (digits_of (p / u)) in
  let k := sig - d in
  fmt_duration_with prec width p =
  FOk (fill_to width (render_fix (p * 10 ^ k / u) k ++ [ch_space] ++ suffix)).
Proof.
  intros prec width p Hs. pose proof (fmt_duration_with_spec prec width p Hs) as H.
  unfold spec_duration_string in H. cbv zeta.
  destruct (spec_unit (sig_of prec) p) as [u suffix]. exact H.
Qed.

Example duration_with_guard_satisfiable :
  sig_of (Some 0) <= 7 /\ sig_of None <= 7 /\
  fmt_duration_with (Some 0) (Some 6) 1001 = FOk [49; 32; 110; 115; 32; 32].
Proof. vm_compute. repeat split; discriminate. Qed.

Example no_overflow_guard_satisfiable : 4 <= 7 /\ 2 ^ 64 + 1 < day_v * 10 ^ 4.
Proof. vm_compute. split; [discriminate|reflexivity]. Qed.

(** Outside the theorems' guard (recorded, not part of C18's quantifier: the
    table printer never asks for a precision): from 11 significant figures on
    the code's [picos * multiple] overflows u128 for values still on the float
    path (debug build: panic; release build: wraps and prints garbage), and
    from 8 on the pre-scaled integer can exceed 2^53, where the model's float
    assumption no longer applies (the implementation then rounds up:
    [{:.8}] of 8639999999999999999999999 ps prints "100000000 d"). *)
Example large_precision_overflows :
  fmt_duration_with (Some 20) None (10 ^ 19) = FPanic Overflow.
Proof. reflexivity. Qed.

Example precision_8_outside_float_assumption :
  fmt_duration_with (Some 8) None 8639999999999999999999999 = FInexact.
Proof. reflexivity. Qed.

(** For C05: a duration never prints "NaN" or "inf". *)
Lemma duration_prints_no_nan : forall p,
  exists num suffix,
    fmt_duration p = FOk (num ++ [ch_space] ++ suffix) /\
    numeral_chars num /\ In suffix (map snd spec_units) /\
    ~ contains nan_str (num ++ [ch_space] ++ suffix) /\
    ~ contains inf_str (num ++ [ch_space] ++ suffix).
Proof.
  intros p. pose proof (fmt_duration_spec p) as H. unfold spec_duration_string in H.
  pose proof (spec_unit_props 4 p) as [_ [H78 H102]].
  pose proof (in_map snd _ _ (proj1 (spec_unit_largest 4 p))) as Hin.
  destruct (spec_unit 4 p) as [u suffix]. cbn [snd fill_to] in *.
  exists (trunc_numeral p u 4), suffix. split; [exact H|].
  split; [apply trunc_numeral_chars|]. split; [exact Hin|].
  apply no_nan_inf; [apply trunc_numeral_chars|exact H78|exact H102].
Qed.
