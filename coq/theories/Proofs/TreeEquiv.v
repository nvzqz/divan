(** C12: registration order changes the built tree only by the order of
    siblings.  A trie without empty parents is determined, up to sibling order,
    by the chains of its leaves. *)
From Coq Require Import Permutation.
From DivanV Require Import Base.Res Model.Registry Model.Tree
  Proofs.TreeBase Proofs.TreeLeaves Proofs.Flat Proofs.ListFacts.
Local Open Scope N_scope.

(** Equality of trees up to the order of siblings (argument lists of leaves equal). *)
Inductive tree_equiv : tree -> tree -> Prop :=
| TE_leaf : forall e a, tree_equiv (Leaf e a) (Leaf e a)
| TE_parent : forall r g ch ch1 ch2,
    Forall2 tree_equiv ch ch1 -> Permutation ch1 ch2 -> tree_equiv (Parent r g ch) (Parent r g ch2).
Definition forest_equiv (l l2 : list tree) : Prop :=
  exists l1, Forall2 tree_equiv l l1 /\ Permutation l1 l2.

(** No parent without a leaf below it. *)
Fixpoint inhab (t : tree) : bool :=
  match t with
  | Leaf _ _ => true
  | Parent _ _ ch => negb (is_nil ch) && forallb inhab ch
  end.

Definition LR (l : list tree) : list cleaf := flat_map leaves_rel l.

Lemma inhab_leaves : forall t, inhab t = true -> exists x, In x (leaves_rel t).
Proof.
  induction t as [e a|r g ch IH] using tree_ind'; intro H.
  - exists ([], e, a). left. reflexivity.
  - cbn in H. apply andb_true_iff in H. destruct H as [Hn Hall].
    destruct ch as [|c tl]; [discriminate|]. inversion IH as [|? ? Hc _]; subst.
    cbn in Hall. apply andb_true_iff in Hall. destruct Hall as [Hci _].
    destruct (Hc Hci) as [x Hx]. exists (cprepend (r, g) x). cbn [leaves_rel]. apply in_map. cbn [flat_map].
    apply in_or_app. left. exact Hx.
Qed.

Lemma inhab_from_benches : forall es, forallb inhab (from_benches es) = true.
Proof.
  apply from_benches_forallb.
  - reflexivity.
  - intros r x H. cbn. rewrite H. reflexivity.
  - intros r g ch H. cbn in H. apply andb_true_iff in H. apply H.
  - intros r g ch ch' _ Hch' Hn. cbn. rewrite Hn, Hch'. reflexivity.
Qed.

(** [inhab] looks at the names only, and group insertion changes none. *)
Lemma inhab_skel : forall l l', map skel_of l = map skel_of l' -> forallb inhab l = forallb inhab l'.
Proof.
  induction l as [|e a tl IHtl|r g ch tl IHch IHtl] using forest_ind; intros [|t' tl'] H; try discriminate H.
  - reflexivity.
  - destruct t' as [r' g' ch'|e' a']; [discriminate H|]. cbn [map skel_of] in H. injection H as H.
    cbn [forallb inhab]. rewrite (IHtl tl' H). reflexivity.
  - destruct t' as [r' g' ch'|e' a']; [|discriminate H]. cbn [map skel_of] in H. injection H as _ Hch Htl.
    cbn [forallb inhab]. rewrite (IHch ch' Hch), (IHtl tl' Htl). destruct ch, ch'; try discriminate Hch; reflexivity.
Qed.

Lemma inhab_build_tree : forall benches groups, forallb inhab (build_tree benches groups) = true.
Proof.
  intros. unfold build_tree. rewrite (inhab_skel _ _ (skel_fold_groups groups _)). apply inhab_from_benches.
Qed.

Definition has_head (r : str) (x : cleaf) : bool :=
  match fst (fst x) with (r', _) :: _ => str_eqb r' r | [] => false end.

Lemma filter_head_node : forall r t,
  filter (has_head r) (leaves_rel t) = if is_parent_named r t then leaves_rel t else [].
Proof.
  intros r [r' g ch|e a]; [|reflexivity]. cbn [leaves_rel is_parent_named].
  destruct (str_eqb r' r) eqn:E; [apply filter_all|apply filter_none];
    intros x Hx; apply in_map_iff in Hx; destruct Hx as [y [Hy _]]; subst; exact E.
Qed.

Lemma filter_head_absent : forall r l, ~ In r (parent_names l) -> filter (has_head r) (LR l) = [].
Proof.
  intros r. induction l as [|t tl IH]; intro H; [reflexivity|].
  unfold parent_names in H. cbn [flat_map] in H. rewrite in_app_iff in H.
  unfold LR. cbn [flat_map]. rewrite filter_app, filter_head_node. fold (LR tl). rewrite IH by (intro Hin; apply H; right; exact Hin).
  destruct t as [r' g ch|e a]; [|reflexivity]. cbn [is_parent_named]. destruct (str_eqb r' r) eqn:E; [|reflexivity].
  apply str_eqb_spec in E. subst r'. exfalso. apply H. left. left. reflexivity.
Qed.

Lemma LR_app : forall l1 l2, LR (l1 ++ l2) = LR l1 ++ LR l2.
Proof. intros. unfold LR. apply flat_map_app. Qed.

Lemma select_parent : forall A r g ch B, trie_forest (A ++ Parent r g ch :: B) ->
  filter (has_head r) (LR (A ++ Parent r g ch :: B)) = leaves_rel (Parent r g ch).
Proof.
  intros A r g ch B H. destruct (trie_forest_split A r g ch B H) as [HA [HB _]].
  rewrite LR_app, filter_app, (filter_head_absent r A HA). unfold LR at 1. cbn [flat_map]. fold (LR B).
  rewrite filter_app, (filter_head_absent r B HB), filter_head_node. cbn [is_parent_named]. rewrite str_eqb_refl.
  apply app_nil_r.
Qed.

Lemma in_LR_leaf : forall e a l, In ([], e, a) (LR l) -> exists A B, l = A ++ Leaf e a :: B.
Proof.
  intros e a l H. apply in_flat_map in H. destruct H as [t [Ht H]]. destruct t as [r g ch|e' a'].
  - cbn [leaves_rel] in H. apply in_map_iff in H. destruct H as [y [Hy _]]. discriminate.
  - destruct H as [H|[]]. inversion H; subst. apply in_split. exact Ht.
Qed.

Lemma in_LR_parent : forall r g x l, In (cprepend (r, g) x) (LR l) -> exists A ch B, l = A ++ Parent r g ch :: B.
Proof.
  intros r g x l H. apply in_flat_map in H. destruct H as [t [Ht H]]. destruct t as [r' g' ch|e a].
  - cbn [leaves_rel] in H. apply in_map_iff in H. destruct H as [y [Hy _]]. inversion Hy; subst.
    apply in_split in Ht. destruct Ht as [A [B Ht]]. exists A, ch, B. exact Ht.
  - destruct H as [H|[]]. discriminate.
Qed.

Lemma forallb_inhab_remove : forall A y B,
  forallb inhab (A ++ y :: B) = true -> inhab y = true /\ forallb inhab (A ++ B) = true.
Proof.
  intros A y B H. rewrite forallb_app in *. cbn [forallb] in H.
  destruct (forallb inhab A), (inhab y), (forallb inhab B); try discriminate. split; reflexivity.
Qed.

Lemma forest_equiv_cons : forall x y tl A B,
  tree_equiv x y -> forest_equiv tl (A ++ B) -> forest_equiv (x :: tl) (A ++ y :: B).
Proof.
  intros x y tl A B Hxy [l1 [F P]]. exists (y :: l1). split; [constructor; assumption|apply Permutation_cons_app; exact P].
Qed.

Lemma map_tl_prepend : forall p l, map (rechain (@tl _)) (map (cprepend p) l) = l.
Proof. intros p l. rewrite map_map. exact (map_rechain_id (fun c => c) l (fun _ => eq_refl)). Qed.

(** The head of each leaf's chain says which top-level tree it hangs below. *)
Theorem forest_determined : forall T T',
  trie_forest T -> forallb inhab T = true -> trie_forest T' -> forallb inhab T' = true ->
  Permutation (LR T) (LR T') -> forest_equiv T T'.
Proof.
  induction T as [|e a tl IHtl|r g ch tl IHch IHtl] using forest_ind; intros T' HT Hi HT' Hi' Hp.
  - (* no leaves: T' is empty *)
    destruct T' as [|y tl']; [exists []; split; constructor|]. exfalso.
    cbn in Hi'. apply andb_true_iff in Hi'. destruct Hi' as [Hy _]. destruct (inhab_leaves y Hy) as [z Hz].
    apply (Permutation_nil (l:=LR (y :: tl'))) in Hp. unfold LR in Hp. cbn [flat_map] in Hp. apply app_eq_nil in Hp.
    destruct Hp as [Hp _]. rewrite Hp in Hz. exact Hz.
  - (* a leaf: the same leaf is in T' *)
    destruct (in_LR_leaf e a T') as [A [B HT'eq]]; [apply (Permutation_in _ Hp); left; reflexivity|]. subst T'.
    apply (forest_equiv_cons _ _ _ _ _ (TE_leaf e a)).
    apply IHtl.
    + apply (trie_forest_remove_leaf [] e a tl HT).
    + exact (proj2 (forallb_inhab_remove [] _ tl Hi)).
    + apply (trie_forest_remove_leaf A e a B HT').
    + exact (proj2 (forallb_inhab_remove A _ B Hi')).
    + rewrite LR_app in *. apply (Permutation_cons_app_inv _ _ Hp).
  - (* a parent: the parent of that name in T' has the same leaves *)
    destruct (forallb_inhab_remove [] _ tl Hi) as [Hix Hitl]. destruct (inhab_leaves _ Hix) as [z Hz].
    cbn [leaves_rel] in Hz. apply in_map_iff in Hz. destruct Hz as [z0 [Hz0 Hz]]. subst z.
    destruct (in_LR_parent r g z0 T') as [A [ch' [B HT'eq]]].
    { apply (Permutation_in _ Hp). apply in_or_app. left. apply in_map. exact Hz. }
    subst T'. destruct (forallb_inhab_remove A _ B Hi') as [Hiy HiAB].
    destruct (trie_forest_split [] r g ch tl HT) as [_ [_ [Htch Httl]]].
    destruct (trie_forest_split A r g ch' B HT') as [_ [_ [Htch' HtAB]]].
    assert (Px : Permutation (leaves_rel (Parent r g ch)) (leaves_rel (Parent r g ch'))).
    { rewrite <- (select_parent [] r g ch tl HT), <- (select_parent A r g ch' B HT'). apply Permutation_filter. exact Hp. }
    cbn [inhab] in Hix, Hiy. apply andb_true_iff in Hix, Hiy.
    destruct (IHch ch' Htch (proj2 Hix) Htch' (proj2 Hiy)) as [c1 [F1 P1]].
    { rewrite <- (map_tl_prepend (r, g) (LR ch)), <- (map_tl_prepend (r, g) (LR ch')). apply Permutation_map. exact Px. }
    apply forest_equiv_cons; [apply (TE_parent r g ch c1 ch'); assumption|].
    apply IHtl; try assumption.
    (* cancel the leaves of the two parents *)
    apply (Permutation_app_inv_l (leaves_rel (Parent r g ch'))).
    apply Permutation_trans with (LR (Parent r g ch :: tl)); [apply Permutation_app_tail, Permutation_sym, Px|].
    apply (Permutation_trans Hp). rewrite !LR_app.
    apply (Permutation_app_swap_app (LR A) (leaves_rel (Parent r g ch')) (LR B)).
Qed.

Lemma tree_order_independent : forall benches groups benches' groups',
  Permutation benches benches' -> Permutation groups groups' ->
  NoDup (map (attach_key benches groups) groups) ->
  (forall x, In x groups -> attach_key benches' groups' x = attach_key benches groups x) ->
  forest_equiv (build_tree benches groups) (build_tree benches' groups').
Proof.
  intros b g b' g' Hb Hg Hnd Hkf.
  apply forest_determined; try apply modules_merged; try apply inhab_build_tree.
  apply leaves_rel_order_independent; assumption.
Qed.

Lemma tree_equiv_refl : forall t, tree_equiv t t.
Proof.
  induction t as [e a|r g ch IH] using tree_ind'; [constructor|].
  apply (TE_parent r g ch ch ch); [apply Forall2_diag, IH|apply Permutation_refl].
Qed.

(** [tree_equiv] relates different trees: a non-trivial instance. *)
Example tree_equiv_swaps :
  tree_equiv (Parent [99] None [Leaf (ABench w_bench_a) None; Parent [102] None [Leaf (ABench w_bench_a) None]])
             (Parent [99] None [Parent [102] None [Leaf (ABench w_bench_a) None]; Leaf (ABench w_bench_a) None]).
Proof.
  eapply TE_parent; [|apply perm_swap]. constructor; [apply tree_equiv_refl|constructor; [apply tree_equiv_refl|constructor]].
Qed.
