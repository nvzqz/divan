(** Proofs about Model/Sample.v: the memory discipline ([exec]) and the
    per-sample monitor ([sb_sample]) hold of [sample_prog] for every entry
    point, shape, counter set, sample size.

    Both proofs follow the three loops of the sample.  Iteration [i] of a loop
    works on cell [i] / value [i] only, so a loop takes every cell below [n]
    from one state to the next and leaves the others alone ([exec_range],
    [mon_range]); what one iteration does to its own cell is a finite
    computation ([gen_cell] ..., [mon_gen_local] ...). *)

From DivanV Require Import Base.Res Model.Sample Proofs.ListFacts.
Local Open Scope nat_scope.
Local Arguments Nat.ltb _ _ : simpl never.

Lemma upd_same {A} (f : nat -> A) i v : upd f i v i = v.
Proof. unfold upd. rewrite Nat.eqb_refl. reflexivity. Qed.

Lemma upd_other {A} (f : nat -> A) i v j : j <> i -> upd f i v j = f j.
Proof. intros H. unfold upd. destruct (Nat.eqb_spec j i); [contradiction|reflexivity]. Qed.

Inductive loop := LGen | LCall | LDrop.

Definition act_loop (a : action) : option loop :=
  match a with
  | Gen _ | Count _ _ | ForgetIn _ => Some LGen
  | Call _ _ _ | UserDropIn _ | StoreOut _ | ForgetOut _ | DiscardOut _ => Some LCall
  | DropOut _ _ | DropIn _ _ => Some LDrop
  | _ => None
  end.

Definition loop_act (k : loop) (i : nat) (a : action) : Prop :=
  act_loop a = Some k /\ act_index a = Some i.

Lemma gen_block_acts p cs i : Forall (loop_act LGen i) (gen_block p cs i).
Proof.
  unfold gen_block, count_actions. apply Forall_app; split; [|apply Forall_app; split].
  - repeat constructor.
  - apply Forall_flat_map, Forall_forall. intros k _. destruct (uses cs k); repeat constructor.
  - destruct p; repeat constructor.
Qed.

Lemma call_block_acts p r u i : Forall (loop_act LCall i) (call_block p r u i).
Proof. destruct p, r, u; repeat constructor. Qed.

(** One iteration of the drop loop, also when the whole loop is skipped (the
    inputs-only path tests [needs_drop::<I>()] outside the loop): the drop phase
    is then a loop like the other two. *)
Definition drop_step (p : path) (sh : shape) (r : bool) (i : nat) : list action :=
  match p with
  | PathInputs => if i_drop sh then drop_block p sh r i else []
  | _ => drop_block p sh r i
  end.

Lemma drop_phase_steps p sh r n : drop_phase p sh r n = flat_map (drop_step p sh r) (seq 0 n).
Proof.
  unfold drop_phase, drop_step. destruct p; try reflexivity.
  destruct (i_drop sh); [reflexivity|]. induction (seq 0 n); [reflexivity|assumption].
Qed.

Lemma drop_step_acts p sh r i : Forall (loop_act LDrop i) (drop_step p sh r i).
Proof.
  unfold drop_step, drop_block, drop_input.
  destruct p, (o_zst sh), (i_drop sh), r; repeat constructor.
Qed.

Definition in_loop (k : loop) (n : nat) (a : action) : Prop := exists i, i < n /\ loop_act k i a.

Lemma in_loop_inv k n a :
  in_loop k n a -> act_loop a = Some k /\ match act_index a with Some i => i < n | None => False end.
Proof. intros (i & Hi & Hk & Ha). rewrite Ha. auto. Qed.

Lemma loop_acts k (blk : nat -> list action) n :
  (forall i, Forall (loop_act k i) (blk i)) -> Forall (in_loop k n) (flat_map blk (seq 0 n)).
Proof.
  intros H. apply Forall_flat_map, Forall_forall. intros i Hi. apply in_seq in Hi.
  eapply Forall_impl; [|apply H]. intros a Ha. exists i. split; [lia|exact Ha].
Qed.

Lemma gen_phase_acts p cs n : Forall (in_loop LGen n) (gen_phase p cs n).
Proof. apply loop_acts, gen_block_acts. Qed.

Lemma call_phase_acts p r u n : Forall (in_loop LCall n) (call_phase p r u n).
Proof. apply loop_acts, call_block_acts. Qed.

Lemma drop_phase_acts p sh r n : Forall (in_loop LDrop n) (drop_phase p sh r n).
Proof. rewrite drop_phase_steps. apply loop_acts, drop_step_acts. Qed.

Lemma exec_app l1 l2 s :
  exec (l1 ++ l2) s =
  match exec l1 s with SOk s' => exec l2 s' | SFault f i => SFault f i end.
Proof.
  revert s. induction l1 as [|a l1 IH]; intros s; cbn; [reflexivity|].
  destruct (exec_step s a); [apply IH|reflexivity].
Qed.

Fixpoint cell_run (l : list action) (v : ist * ost) : fault + ist * ost :=
  match l with
  | [] => inr v
  | a :: r => match cell_step v a with inl f => inl f | inr v' => cell_run r v' end
  end.

Definition block_at (i : nat) (l : list action) : Prop :=
  Forall (fun a => act_index a = Some i) l.

Lemma loop_block_at k i l : Forall (loop_act k i) l -> block_at i l.
Proof. apply Forall_impl. intros a H. apply H. Qed.

Lemma exec_block i l :
  block_at i l -> forall s v, cell_run l (s i) = inr v ->
  exists s', exec l s = SOk s' /\ s' i = v /\ forall j, j <> i -> s' j = s j.
Proof.
  induction 1 as [|a l Ha Hl IH]; intros s v Hrun; cbn in *.
  - inversion Hrun; subst. exists s. auto.
  - unfold exec_step. rewrite Ha.
    destruct (cell_step (s i) a) as [f|v1] eqn:E; [discriminate|].
    destruct (IH (upd s i v1) v) as (s' & He & Hi & Ho).
    { rewrite upd_same. exact Hrun. }
    exists s'. split; [exact He|]. split; [exact Hi|].
    intros j Hj. rewrite (Ho j Hj). apply upd_other. exact Hj.
Qed.

Lemma exec_range (blk : nat -> list action) (X Y : ist * ost) :
  (forall i, block_at i (blk i)) ->
  (forall i, cell_run (blk i) X = inr Y) ->
  forall n s, (forall j, j < n -> s j = X) ->
  exists s', exec (flat_map blk (seq 0 n)) s = SOk s'
             /\ (forall j, j < n -> s' j = Y)
             /\ (forall j, n <= j -> s' j = s j).
Proof.
  intros Hb Hc. induction n as [|n IH]; intros s Hs.
  - exists s. split; [reflexivity|]. split; [intros j Hj; lia|auto].
  - rewrite seq_S, flat_map_app, exec_app. cbn [flat_map plus]. rewrite app_nil_r.
    destruct (IH s) as (s1 & E1 & I1 & O1); [intros j Hj; apply Hs; lia|]. rewrite E1.
    destruct (exec_block n (blk n) (Hb n) s1 Y) as (s2 & E2 & I2 & O2).
    { rewrite O1, Hs by lia. apply Hc. }
    exists s2. split; [exact E2|]. split; intros j Hj.
    + destruct (Nat.eq_dec j n) as [->|Hne]; [exact I2|]. rewrite O2 by exact Hne. apply I1. lia.
    + rewrite O2 by lia. apply O1. lia.
Qed.

(** States of a cell pair after each phase. *)
Definition gen_in (p : path) : ist := match p with PathZst => IForgotten | _ => IInit end.
Definition call_in (p : path) (r u : bool) : ist :=
  if r then gen_in p else if u then IDropped else IMoved.
Definition call_out (p : path) : ost :=
  match p with PathZst => OForgotten | PathSlots => OInit | PathInputs => ODropped end.
Definition drop_in (p : path) (sh : shape) (r u : bool) : ist :=
  if r && i_drop sh then IDropped else call_in p r u.
Definition drop_out (p : path) (sh : shape) : ost :=
  match p with
  | PathZst => if o_zst sh then ODropped else OForgotten
  | _ => ODropped
  end.

Lemma gen_cell p cs i : cell_run (gen_block p cs i) (IUninit, OUninit) = inr (gen_in p, OUninit).
Proof. destruct p, cs as [[] [] [] []]; reflexivity. Qed.

Lemma call_cell p r u i :
  cell_run (call_block p r u i) (gen_in p, OUninit) = inr (call_in p r u, call_out p).
Proof. destruct p, r, u; reflexivity. Qed.

Lemma drop_cell sh r u i :
  let p := path_of sh in
  cell_run (drop_step p sh r i) (call_in p r u, call_out p) = inr (drop_in p sh r u, drop_out p sh).
Proof. destruct sh as [[] [] [] []], r; reflexivity. Qed.

Lemma exec_nil_effect s : exec [SyncStart; TsStart] s = SOk s /\ exec [TsEnd; SyncEnd; Snapshot] s = SOk s.
Proof. split; reflexivity. Qed.

Lemma exec_core_ok sh cs r u n :
  let p := path_of sh in
  exists st, exec (sample_core p sh cs r u n) empty_store = SOk st
             /\ (forall j, j < n -> st j = (drop_in p sh r u, drop_out p sh))
             /\ (forall j, n <= j -> st j = (IUninit, OUninit)).
Proof.
  intros p. unfold sample_core, gen_phase, call_phase. rewrite drop_phase_steps.
  destruct (exec_range (gen_block p cs) (IUninit, OUninit) (gen_in p, OUninit)
              (fun i => loop_block_at _ i _ (gen_block_acts p cs i))
              (gen_cell p cs) n empty_store) as (s1 & E1 & I1 & O1); [reflexivity|].
  rewrite exec_app, E1, exec_app, (proj1 (exec_nil_effect s1)).
  destruct (exec_range (call_block p r u) (gen_in p, OUninit) (call_in p r u, call_out p)
              (fun i => loop_block_at _ i _ (call_block_acts p r u i))
              (call_cell p r u) n s1 I1) as (s2 & E2 & I2 & O2).
  rewrite exec_app, E2, exec_app, (proj2 (exec_nil_effect s2)).
  destruct (exec_range (drop_step p sh r) (call_in p r u, call_out p) (drop_in p sh r u, drop_out p sh)
              (fun i => loop_block_at _ i _ (drop_step_acts p sh r i))
              (drop_cell sh r u) n s2 I2) as (s3 & E3 & I3 & O3).
  exists s3. split; [exact E3|]. split; [exact I3|].
  intros j Hj. rewrite O3, O2, O1 by exact Hj. reflexivity.
Qed.

Definition final_in (e : entry) (sh : shape) (u : bool) : ist :=
  let s := eff_shape e sh in drop_in (path_of s) s (by_ref e) u.
Definition final_out (e : entry) (sh : shape) : ost :=
  let s := eff_shape e sh in drop_out (path_of s) s.

Theorem exec_sample_ok e sh n cs u :
  exists st, exec (sample_prog e sh n cs u) empty_store = SOk st
             /\ (forall j, j < n -> st j = (final_in e sh u, final_out e sh))
             /\ (forall j, n <= j -> st j = (IUninit, OUninit)).
Proof. unfold sample_prog, final_in, final_out. apply exec_core_ok. Qed.

Lemma exec_ok_sample e sh n cs u : exec_ok (sample_prog e sh n cs u) = true.
Proof. unfold exec_ok. destruct (exec_sample_ok e sh n cs u) as (st & E & _). rewrite E. reflexivity. Qed.

(** Reading of the final store: a lent input with a destructor was dropped, one
    without is still in its cell; an input given by value was moved out (and
    dropped by its new owner iff that owner chose to); an output with a
    destructor was dropped.  An output without one ends dropped without glue
    ([DiscardOut], the zeroed ZST) or forgotten, depending on the path. *)
Lemma final_in_meaning e sh u :
  final_in e sh u =
  if by_ref e then
    (if i_drop (eff_shape e sh) then IDropped
     else match path_of (eff_shape e sh) with PathZst => IForgotten | _ => IInit end)
  else if u then IDropped else IMoved.
Proof.
  unfold final_in, drop_in, call_in, gen_in.
  destruct (by_ref e), (i_drop (eff_shape e sh)), u; reflexivity.
Qed.

Lemma final_out_meaning e sh :
  o_drop (eff_shape e sh) = true -> final_out e sh = ODropped.
Proof.
  unfold final_out, drop_out, path_of.
  destruct (eff_shape e sh) as [[] [] [] []]; cbn; intros H; try reflexivity; discriminate.
Qed.

Fixpoint mon_exec (m : mcfg) (l : list (oev nat)) (s : mstate) : option mstate :=
  match l with
  | [] => Some s
  | e :: rest => match mon_step m s e with inr s' => mon_exec m rest s' | inl _ => None end
  end.

Lemma mon_run_exec m l : forall s pos s', mon_run m l s pos = MOk s' <-> mon_exec m l s = Some s'.
Proof.
  induction l as [|e l IH]; intros s pos s'; cbn.
  - split; intros [= ->]; reflexivity.
  - destruct (mon_step m s e); [split; discriminate|apply IH].
Qed.

Lemma sb_sample_exec m l :
  sb_sample m l = true <-> exists s, mon_exec m l mstate0 = Some s /\ mon_final m s = true.
Proof.
  unfold sb_sample. split.
  - destruct (mon_run m l mstate0 0) as [s|] eqn:R; [|discriminate].
    intros F. exists s. split; [apply (mon_run_exec m l _ 0), R|exact F].
  - intros (s & R & F). apply (mon_run_exec m l _ 0) in R. rewrite R. exact F.
Qed.

Lemma mon_exec_app m l1 l2 s :
  mon_exec m (l1 ++ l2) s = match mon_exec m l1 s with Some s' => mon_exec m l2 s' | None => None end.
Proof.
  revert s. induction l1 as [|e l1 IH]; intros s; cbn; [reflexivity|].
  destruct (mon_step m s e); [reflexivity|apply IH].
Qed.

Fixpoint local_run (m : mcfg) (p : phase) (i : nat) (l : list (oev nat)) (v : vst) (nc : nat)
  : option (vst * nat) :=
  match l with
  | [] => Some (v, nc)
  | e :: rest =>
      match mon_local m p nc i v e with
      | inr (v', nc') => local_run m p i rest v' nc'
      | inl _ => None
      end
  end.

Definition evs_at (i : nat) (l : list (oev nat)) : Prop :=
  Forall (fun e => ev_index e = Some i) l.

Lemma mon_block m i l :
  evs_at i l -> forall s v nc,
  local_run m (ph s) i l (vals s i) (ncall s) = Some (v, nc) ->
  exists s', mon_exec m l s = Some s' /\ ph s' = ph s /\ ncall s' = nc /\ vals s' i = v
             /\ forall j, j <> i -> vals s' j = vals s j.
Proof.
  induction 1 as [|e l He Hl IH]; intros s v nc Hrun; cbn in *.
  - inversion Hrun; subst. exists s. auto.
  - unfold mon_step. rewrite He.
    destruct (mon_local m (ph s) (ncall s) i (vals s i) e) as [c|[v1 nc1]] eqn:E; [discriminate|].
    destruct (IH (mkS (ph s) (upd (vals s) i v1) nc1) v nc) as (s' & He' & Hp & Hn & Hv & Ho).
    { cbn. rewrite upd_same. exact Hrun. }
    exists s'. split; [exact He'|]. cbn in Hp. repeat split; auto.
    intros j Hj. rewrite (Ho j Hj). cbn. apply upd_other. exact Hj.
Qed.

Lemma mon_range m (blk : nat -> list (oev nat)) (p : phase) (X Y : vst) (calls_before : nat -> nat) :
  (forall i, evs_at i (blk i)) ->
  forall n, (forall i, i < n -> local_run m p i (blk i) X (calls_before i) = Some (Y, calls_before (S i))) ->
  forall s, ph s = p -> ncall s = calls_before 0 -> (forall j, j < n -> vals s j = X) ->
  exists s', mon_exec m (flat_map blk (seq 0 n)) s = Some s' /\ ph s' = p /\ ncall s' = calls_before n
             /\ (forall j, j < n -> vals s' j = Y)
             /\ (forall j, n <= j -> vals s' j = vals s j).
Proof.
  intros Hb. induction n as [|n IH]; intros Hc s Hp Hn Hs.
  - exists s. repeat split; auto. intros j Hj; lia.
  - rewrite seq_S, flat_map_app, mon_exec_app. cbn [flat_map plus]. rewrite app_nil_r.
    destruct (IH (fun i Hi => Hc i (Nat.lt_lt_succ_r _ _ Hi)) s Hp Hn) as (s1 & E1 & P1 & N1 & I1 & O1);
      [intros j Hj; apply Hs; lia|].
    rewrite E1.
    destruct (mon_block m n (blk n) (Hb n) s1 Y (calls_before (S n))) as (s2 & E2 & P2 & N2 & V2 & O2).
    { rewrite P1, N1, O1, Hs by lia. apply Hc. lia. }
    exists s2. split; [exact E2|]. split; [congruence|]. split; [exact N2|]. split; intros j Hj.
    + destruct (Nat.eq_dec j n) as [->|Hne]; [exact V2|]. rewrite O2 by exact Hne. apply I1. lia.
    + rewrite O2 by lia. apply O1. lia.
Qed.

Lemma obs_app v l1 l2 : obs v (l1 ++ l2) = obs v l1 ++ obs v l2.
Proof. apply flat_map_app. Qed.

Lemma obs_flat_map v (blk : nat -> list action) l :
  obs v (flat_map blk l) = flat_map (fun i => obs v (blk i)) l.
Proof. apply flat_map_flat_map. Qed.

Lemma obs_Forall v (P : action -> Prop) (Q : oev nat -> Prop) l :
  (forall a, P a -> Forall Q (obs1 v a)) -> Forall P l -> Forall Q (obs v l).
Proof. intros H Hl. apply Forall_flat_map. eapply Forall_impl; eassumption. Qed.

Lemma obs1_at v a i : act_index a = Some i -> evs_at i (obs1 v a).
Proof.
  destruct a; cbn; intros [= <-];
    try match goal with |- context [if ?b then _ else _] => destruct b end; repeat constructor.
Qed.

Lemma obs_loop_at v k i l : Forall (loop_act k i) l -> evs_at i (obs v l).
Proof. apply obs_Forall. intros a H. apply obs1_at, H. Qed.

Lemma obs_call_block v p r u i :
  obs v (call_block p r u i) = OCall i i :: (if negb r && u && v_idrop v then [OUDropIn i] else []).
Proof. destruct v as [? [] ? ?], p, r, u; reflexivity. Qed.

Definition mk_m (g : bool) (sh : shape) (cs : counters) (r : bool) (n : nat) : mcfg :=
  mkM g cs r (i_drop sh) (o_drop sh) n.
Definition mk_v (g : bool) (sh : shape) (multi : bool) : vis :=
  mkVis g (i_drop sh) (o_drop sh) multi.

(** For [bench]/[bench_local]: no counters, by value, unit input. *)
Definition unit_ok (g : bool) (sh : shape) (cs : counters) (r : bool) : Prop :=
  g = false -> cs = no_counters /\ r = false /\ i_drop sh = false.

Lemma unit_ok_entry e sh cs :
  unit_ok (has_gen e) (eff_shape e sh) (eff_counters e cs) (by_ref e).
Proof.
  unfold unit_ok, eff_shape, eff_counters. destruct e; cbn; intros H; try discriminate; auto.
Qed.

(** Life of a value after each phase. *)
Definition val_gen (g : bool) (cs : counters) : vst := mkV (if g then VLive else VNone) cs WNone.
Definition val_call (g : bool) (sh : shape) (cs : counters) (r u : bool) : vst :=
  mkV (if g then (if r then VLive else if u && i_drop sh then VDropped else VGiven) else VNone) cs WLive.
Definition val_drop (g : bool) (sh : shape) (cs : counters) (r u : bool) : vst :=
  mkV (if g then (if r then (if i_drop sh then VDropped else VLive)
                  else if u && i_drop sh then VDropped else VGiven) else VNone)
      cs (if o_drop sh then WDropped else WLive).

Lemma mon_gen_local g sh cs r n multi p i :
  unit_ok g sh cs r -> i < n ->
  local_run (mk_m g sh cs r n) PPre i (obs (mk_v g sh multi) (gen_block p cs i)) vst0 0
  = Some (val_gen g cs, 0).
Proof.
  intros Hu Hlt. apply Nat.ltb_lt in Hlt.
  (* [mem::forget] of the ZST path shows nothing *)
  unfold gen_block. rewrite app_assoc, obs_app.
  replace (obs _ match p with PathZst => _ | _ => _ end) with (@nil (oev nat)) by (destruct p; reflexivity).
  rewrite app_nil_r. destruct g.
  - destruct cs as [[] [] [] []]; cbn; rewrite ?Hlt; reflexivity.
  - destruct (Hu eq_refl) as (-> & _). reflexivity.
Qed.

Lemma mon_call_local g sh cs r u n multi p i :
  unit_ok g sh cs r -> i < n ->
  local_run (mk_m g sh cs r n) PTimed i (obs (mk_v g sh multi) (call_block p r u i)) (val_gen g cs) i
  = Some (val_call g sh cs r u, S i).
Proof.
  intros Hu Hlt. apply Nat.ltb_lt in Hlt. rewrite obs_call_block.
  unfold mk_m, mk_v, val_call. cbn [v_idrop].
  destruct g.
  - assert (Hcs : cs_eqb cs cs = true) by (destruct cs as [[] [] [] []]; reflexivity).
    destruct r, u, (i_drop sh); cbn; rewrite Hlt, !Nat.eqb_refl, Hcs; cbn;
      rewrite ?Nat.eqb_refl; reflexivity.
  - destruct (Hu eq_refl) as (-> & -> & ->). rewrite Bool.andb_false_r.
    cbn. rewrite Hlt, !Nat.eqb_refl. reflexivity.
Qed.

Lemma mon_drop_local g sh cs r u n multi i :
  unit_ok g sh cs r -> i < n ->
  local_run (mk_m g sh cs r n) PPost i (obs (mk_v g sh multi) (drop_step (path_of sh) sh r i))
            (val_call g sh cs r u) n
  = Some (val_drop g sh cs r u, n).
Proof.
  intros Hu Hlt. apply Nat.ltb_lt in Hlt.
  destruct g.
  - destruct sh as [[] [] [] []], r; cbn; rewrite ?Hlt; reflexivity.
  - destruct (Hu eq_refl) as (-> & -> & Hd).
    destruct sh as [[] [] [] []]; try discriminate Hd; cbn; rewrite ?Hlt; reflexivity.
Qed.

Lemma final_val_drop g sh cs r u n :
  final_val (mk_m g sh cs r n) (val_drop g sh cs r u) = true.
Proof. destruct g, r, u, sh as [? [] ? []]; reflexivity. Qed.

Lemma mon_start m v vl :
  mon_exec m (obs v [SyncStart; TsStart]) (mkS PPre vl 0) = Some (mkS PTimed vl 0).
Proof. cbn. destruct (v_multi v); reflexivity. Qed.

Lemma mon_end m v vl nc :
  nc = m_n m ->
  mon_exec m (obs v [TsEnd; SyncEnd; Snapshot]) (mkS PTimed vl nc) = Some (mkS PPost vl nc).
Proof. intros ->. cbn. rewrite Nat.eqb_refl. destruct (v_multi v); reflexivity. Qed.

Lemma mon_core_ok g sh cs r u n multi :
  unit_ok g sh cs r ->
  let p := path_of sh in
  exists s, mon_exec (mk_m g sh cs r n) (obs (mk_v g sh multi) (sample_core p sh cs r u n)) mstate0 = Some s
            /\ ph s = PPost /\ ncall s = n
            /\ forall j, j < n -> vals s j = val_drop g sh cs r u.
Proof.
  intros Hu p. set (m := mk_m g sh cs r n). set (v := mk_v g sh multi).
  unfold sample_core, gen_phase, call_phase. rewrite drop_phase_steps, !obs_app, !obs_flat_map.
  destruct (mon_range m (fun i => obs v (gen_block p cs i)) PPre vst0 (val_gen g cs) (fun _ => 0)
              (fun i => obs_loop_at v _ i _ (gen_block_acts p cs i)) n
              (fun i => mon_gen_local g sh cs r n multi p i Hu) mstate0)
    as ([p1 vl1 n1] & E1 & P1 & N1 & I1 & _); [reflexivity..|]. cbn in P1, N1, I1. subst p1 n1.
  rewrite mon_exec_app, E1, mon_exec_app, mon_start.
  destruct (mon_range m (fun i => obs v (call_block p r u i)) PTimed (val_gen g cs) (val_call g sh cs r u)
              (fun i => i)
              (fun i => obs_loop_at v _ i _ (call_block_acts p r u i)) n
              (fun i => mon_call_local g sh cs r u n multi p i Hu) (mkS PTimed vl1 0) eq_refl eq_refl I1)
    as ([p2 vl2 n2] & E2 & P2 & N2 & I2 & _). cbn in P2, N2, I2. subst p2 n2.
  rewrite mon_exec_app, E2, mon_exec_app, (mon_end m v vl2 n eq_refl).
  destruct (mon_range m (fun i => obs v (drop_step p sh r i)) PPost (val_call g sh cs r u) (val_drop g sh cs r u)
              (fun _ => n)
              (fun i => obs_loop_at v _ i _ (drop_step_acts p sh r i)) n
              (fun i => mon_drop_local g sh cs r u n multi i Hu) (mkS PPost vl2 n) eq_refl eq_refl I2)
    as (s3 & E3 & P3 & N3 & I3 & _).
  exists s3. auto.
Qed.

Theorem sb_sample_model e sh n cs u multi :
  sb_sample (mcfg_of e sh n cs) (obs (vis_of e sh multi) (sample_prog e sh n cs u)) = true.
Proof.
  destruct (mon_core_ok (has_gen e) (eff_shape e sh) (eff_counters e cs) (by_ref e) u n multi
              (unit_ok_entry e sh cs)) as (s & E & P & N & V).
  apply sb_sample_exec. exists s. split; [exact E|].
  unfold mon_final, mcfg_of. cbn [m_n]. rewrite P, N, Nat.eqb_refl.
  apply forallb_forall. intros j Hj. apply in_seq in Hj.
  rewrite V by lia. apply final_val_drop.
Qed.
