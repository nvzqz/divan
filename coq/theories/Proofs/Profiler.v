(** C09.  Every run, flat ([run_prof_char]) or with re-entrant requests
    ([prof_tree_forest_char]), is given in closed form: the log is the
    requests, the responses are the wrapped allocator's, and the slot is
    [slot_run] of the requests; the theorems are read off that equation. *)
From DivanV Require Import Base.Res Model.Tally Model.Profiler Proofs.Tally Proofs.ListFacts.

(** The tally slot after the requests, computed without any reference to the
    wrapped allocator. *)
Definition slot_run (chk : bool) (slot : option info) (ops : list aop) : res (option info) :=
  match slot with
  | None => Ok None
  | Some i => do i' <- run_from chk i ops; Ok (Some i')
  end.

(** The [k]-th response is the wrapped allocator's answer to the history made
    of [hist] and the first [k+1] requests. *)
Definition responses (inner : list req -> resp) (hist reqs : list req) : list resp :=
  map (fun k => inner (hist ++ firstn (S k) reqs)) (seq 0 (length reqs)).

Lemma responses_cons inner hist r rest :
  responses inner hist (r :: rest) = inner (hist ++ [r]) :: responses inner (hist ++ [r]) rest.
Proof.
  unfold responses. cbn [length seq map firstn]. f_equal.
  rewrite <- seq_shift, map_map. apply map_ext. intros k.
  cbn [firstn]. rewrite <- app_assoc. reflexivity.
Qed.

Lemma responses_length inner hist reqs : length (responses inner hist reqs) = length reqs.
Proof. unfold responses. rewrite map_length, seq_length. reflexivity. Qed.

Lemma responses_nth inner hist reqs k :
  (k < length reqs)%nat ->
  nth_error (responses inner hist reqs) k = Some (inner (hist ++ firstn (S k) reqs)).
Proof.
  intros H. unfold responses. rewrite (map_nth_error _ _ _ (nth_error_seq 0 _ k H)). reflexivity.
Qed.

Lemma forward_id r : forward r = r.
Proof. destruct r; reflexivity. Qed.

Lemma slot_run_app chk slot a b :
  slot_run chk slot (a ++ b) = (do s <- slot_run chk slot a; slot_run chk s b).
Proof.
  destruct slot as [i|]; cbn [slot_run bind]; [|reflexivity].
  rewrite run_from_app. destruct (run_from chk i a) as [i'|p]; reflexivity.
Qed.

Lemma profiler_step_eq chk slot r :
  profiler_step chk slot r = (do s <- slot_run chk slot [op_of_req r]; Ok (r, s)).
Proof.
  unfold profiler_step. rewrite forward_id. destruct slot as [i|]; [|reflexivity].
  cbn [slot_run run_from]. destruct (step chk i (op_of_req r)); reflexivity.
Qed.

Lemma run_prof_char inner chk reqs : forall slot hist,
  run_prof inner chk slot hist reqs =
  (do s <- slot_run chk slot (map op_of_req reqs);
   Ok (hist ++ reqs, responses inner hist reqs, s)).
Proof.
  induction reqs as [|r rest IH]; intros slot hist.
  - cbn [run_prof map]. rewrite app_nil_r. destruct slot; reflexivity.
  - cbn [run_prof map]. change (op_of_req r :: ?l) with ([op_of_req r] ++ l).
    rewrite slot_run_app, responses_cons, profiler_step_eq.
    destruct (slot_run chk slot [op_of_req r]) as [s|p]; [|reflexivity].
    cbn [bind fst snd]. rewrite IH, <- app_assoc.
    destruct (slot_run chk s (map op_of_req rest)); reflexivity.
Qed.

(** Transparency: what reached the wrapped allocator is the request sequence
    itself (same methods, same arguments, same order, one call per request)
    and what came back to the caller is what the wrapped allocator answered. *)
Theorem transparent inner chk slot reqs log rets s :
  run_prof inner chk slot [] reqs = Ok (log, rets, s) ->
  log = reqs /\ length log = length reqs /\ length rets = length reqs /\
  (forall k, (k < length reqs)%nat -> nth_error rets k = Some (inner (firstn (S k) reqs))) /\
  slot_run chk slot (map op_of_req reqs) = Ok s.
Proof.
  rewrite run_prof_char. destruct (slot_run chk slot (map op_of_req reqs)) as [s'|p]; [|discriminate].
  intros E. injection E as <- <- <-.
  split; [reflexivity|]. split; [reflexivity|]. split; [apply responses_length|].
  split; [|reflexivity]. intros k Hk. apply (responses_nth inner [] reqs k Hk).
Qed.

Definition final_slot (r : res (list req * list resp * option info)) : res (option info) :=
  do x <- r; Ok (snd x).

(** The tally never depends on what the wrapped allocator answers (the code
    tallies before the inner call, null or not). *)
Theorem tally_independent inner1 inner2 chk slot reqs :
  final_slot (run_prof inner1 chk slot [] reqs) = final_slot (run_prof inner2 chk slot [] reqs) /\
  final_slot (run_prof inner1 chk slot [] reqs) = slot_run chk slot (map op_of_req reqs).
Proof.
  rewrite !run_prof_char. unfold final_slot.
  destruct (slot_run chk slot (map op_of_req reqs)); split; reflexivity.
Qed.

(** A panic can only be the tally's overflow check (debug build). *)
Theorem panic_only_from_tally inner chk slot reqs p :
  run_prof inner chk slot [] reqs = Panic p ->
  exists i, slot = Some i /\ run_from chk i (map op_of_req reqs) = Panic p.
Proof.
  rewrite run_prof_char. destruct slot as [i|]; cbn [slot_run bind]; [|discriminate].
  intros H. exists i. split; [reflexivity|].
  destruct (run_from chk i (map op_of_req reqs)); [discriminate|injection H as ->; reflexivity].
Qed.

Lemma slot_run_release slot ops : exists s, slot_run false slot ops = Ok s.
Proof.
  destruct slot as [i|]; cbn [slot_run]; [|eexists; reflexivity].
  destruct (run_from_release ops i) as [i' ->]. eexists; reflexivity.
Qed.

(** Release build, or no tally slot: total, whatever the requests. *)
Theorem release_total inner slot reqs :
  exists s, run_prof inner false slot [] reqs = Ok (reqs, responses inner [] reqs, s).
Proof.
  rewrite run_prof_char. destruct (slot_run_release slot (map op_of_req reqs)) as [s ->].
  eexists; reflexivity.
Qed.

Theorem no_slot_total inner chk reqs :
  run_prof inner chk None [] reqs = Ok (reqs, responses inner [] reqs, None).
Proof. rewrite run_prof_char. reflexivity. Qed.

(** Inside C10's guard: no panic in either build and the tally is the specified one. *)
Theorem guarded_total inner chk reqs :
  no_overflow (map op_of_req reqs) = true ->
  run_prof inner chk (Some info_init) [] reqs
  = Ok (reqs, responses inner [] reqs, Some (spec_info (map op_of_req reqs))).
Proof.
  intros H. rewrite run_prof_char. cbn [slot_run]. fold (run chk (map op_of_req reqs)).
  rewrite run_exact by exact H. reflexivity.
Qed.

Lemma layout_eqb_spec a b : layout_eqb a b = true <-> a = b.
Proof.
  destruct a as [s a], b as [s' a']. unfold layout_eqb. cbn [l_size l_align]. split.
  - intros [->%N.eqb_eq ->%N.eqb_eq]%andb_prop. reflexivity.
  - intros E. injection E as -> ->. rewrite !N.eqb_refl. reflexivity.
Qed.

Lemma req_eqb_spec a b : req_eqb a b = true <-> a = b.
Proof.
  split.
  - destruct a, b; cbn [req_eqb]; try discriminate.
    + intros ->%layout_eqb_spec. reflexivity.
    + intros ->%layout_eqb_spec. reflexivity.
    + intros [[->%N.eqb_eq ->%layout_eqb_spec]%andb_prop ->%N.eqb_eq]%andb_prop. reflexivity.
    + intros [->%N.eqb_eq ->%layout_eqb_spec]%andb_prop. reflexivity.
  - intros <-. destruct a; cbn [req_eqb];
      rewrite ?N.eqb_refl, (proj2 (layout_eqb_spec _ _) eq_refl); reflexivity.
Qed.

Lemma resp_eqb_spec a b : resp_eqb a b = true <-> a = b.
Proof.
  destruct a as [p|], b as [q|]; cbn [resp_eqb]; try (split; discriminate).
  - rewrite N.eqb_eq. split; [intros ->; reflexivity|intros E; injection E as ->; reflexivity].
  - split; reflexivity.
Qed.

Lemma list_eqb_spec {A} (eqb : A -> A -> bool) :
  (forall a b, eqb a b = true <-> a = b) ->
  forall l1 l2, list_eqb eqb l1 l2 = true <-> l1 = l2.
Proof.
  intros Heq. induction l1 as [|x l1 IH]; intros [|y l2]; cbn [list_eqb]; try (split; discriminate).
  - split; reflexivity.
  - rewrite andb_true_iff, Heq, IH. split; [intros [-> ->]; reflexivity|intros E; injection E as -> ->; split; reflexivity].
Qed.

Theorem prof_sb_meaning reqs script log rets :
  prof_sb reqs script log rets = true <-> log = reqs /\ rets = script.
Proof.
  unfold prof_sb. rewrite andb_true_iff, (list_eqb_spec req_eqb req_eqb_spec), (list_eqb_spec resp_eqb resp_eqb_spec).
  reflexivity.
Qed.

Theorem prof_model_sb inner chk slot reqs log rets s :
  run_prof inner chk slot [] reqs = Ok (log, rets, s) ->
  prof_sb reqs (responses inner [] reqs) log rets = true.
Proof.
  rewrite run_prof_char. destruct (slot_run chk slot (map op_of_req reqs)); [|discriminate].
  intros E. injection E as <- <- _. apply prof_sb_meaning. split; reflexivity.
Qed.

(** An inner allocator that fails the second request. *)
Example transparent_example :
  run_prof (fun h => match length h with 2%nat => RespPtr 0 | 4%nat => RespUnit | n => RespPtr (N.of_nat n * 4096) end)
           true (Some info_init) []
           [RAlloc (mkL 5 8); RAllocZeroed (mkL 0 4096); RRealloc 4096 (mkL 5 8) 1099511627776; RDealloc 12288 (mkL 1099511627776 8)]
  = Ok ([RAlloc (mkL 5 8); RAllocZeroed (mkL 0 4096); RRealloc 4096 (mkL 5 8) 1099511627776; RDealloc 12288 (mkL 1099511627776 8)],
        [RespPtr 4096; RespPtr 0; RespPtr 12288; RespUnit],
        Some (mkI (mkT 1 1099511627771) tally_zero (mkT 2 5) (mkT 1 1099511627776) 1 2 0 1099511627776)).
Proof. vm_compute. reflexivity. Qed.

Lemma run_prof_trace_agrees inner chk reqs : forall slot hist,
  run_prof inner chk slot hist reqs =
  match run_prof_trace inner chk slot hist reqs with
  | (log, rets, Ok s) => Ok (log, rets, s)
  | (_, _, Panic p) => Panic p
  end.
Proof.
  induction reqs as [|r rest IH]; intros slot hist; [reflexivity|].
  cbn [run_prof run_prof_trace]. destruct (profiler_step chk slot r) as [fs|p]; [|reflexivity].
  cbn [bind]. rewrite IH.
  destruct (run_prof_trace inner chk (snd fs) (hist ++ [fst fs]) rest) as [[log rets] [s|p]]; reflexivity.
Qed.

Lemma run_prof_trace_panic inner chk reqs : forall slot hist log rets p,
  run_prof_trace inner chk slot hist reqs = (log, rets, Panic p) ->
  exists pre r post sk,
    reqs = pre ++ r :: post /\
    run_prof inner chk slot hist pre = Ok (log, rets, sk) /\
    profiler_step chk sk r = Panic p.
Proof.
  induction reqs as [|r rest IH]; intros slot hist log rets p H; [discriminate H|].
  cbn [run_prof_trace] in H. destruct (profiler_step chk slot r) as [fs|q] eqn:Es.
  - destruct (run_prof_trace inner chk (snd fs) (hist ++ [fst fs]) rest) as [[log' rets'] out] eqn:Et.
    injection H as <- <- ->.
    destruct (IH _ _ _ _ _ Et) as (pre & r0 & post & sk & -> & Hrun & Hp).
    exists (r :: pre), r0, post, sk. split; [reflexivity|]. split; [|exact Hp].
    cbn [run_prof]. rewrite Es. cbn [bind]. rewrite Hrun. reflexivity.
  - injection H as <- <- <-. exists [], r, rest, slot. repeat split. exact Es.
Qed.

(** When the (debug) tally panics at request [k]: the wrapped allocator has
    received exactly the first [k] requests — none dropped, none added, nothing
    for request [k] or later — and the caller got its answers to those. *)
Theorem forwarded_prefix inner chk slot reqs log rets p :
  run_prof_trace inner chk slot [] reqs = (log, rets, Panic p) ->
  run_prof inner chk slot [] reqs = Panic p /\
  exists k, (k < length reqs)%nat /\
    log = firstn k reqs /\ length log = k /\
    rets = responses inner [] (firstn k reqs) /\ length rets = k /\
    (forall j, (j < k)%nat -> nth_error rets j = Some (inner (firstn (S j) reqs))) /\
    exists sk r, run_prof inner chk slot [] (firstn k reqs) = Ok (firstn k reqs, rets, sk) /\
                 nth_error reqs k = Some r /\ profiler_step chk sk r = Panic p.
Proof.
  intros H. split; [rewrite run_prof_trace_agrees, H; reflexivity|].
  destruct (run_prof_trace_panic _ _ _ _ _ _ _ _ H) as (pre & r & post & sk & -> & Hrun & Hp).
  destruct (transparent _ _ _ _ _ _ _ Hrun) as (-> & _ & Hlen & Hnth & _).
  exists (length pre). rewrite firstn_app_exact, app_length. cbn [length]. split; [lia|].
  split; [reflexivity|]. split; [reflexivity|]. split.
  { rewrite run_prof_char in Hrun. destruct (slot_run _ _ _); [|discriminate].
    injection Hrun as <- _. reflexivity. }
  split; [exact Hlen|]. split.
  - intros j Hj. rewrite (Hnth j Hj), firstn_app. replace (S j - length pre)%nat with 0%nat by lia.
    rewrite app_nil_r. reflexivity.
  - exists sk, r. split; [exact Hrun|]. split; [|exact Hp].
    rewrite nth_error_app2, Nat.sub_diag by lia. reflexivity.
Qed.

Theorem trace_ok inner chk slot reqs log rets s :
  run_prof_trace inner chk slot [] reqs = (log, rets, Ok s) <->
  run_prof inner chk slot [] reqs = Ok (log, rets, s).
Proof.
  rewrite run_prof_trace_agrees.
  destruct (run_prof_trace inner chk slot [] reqs) as [[l r] [s'|p]]; split; intros E; inversion E; reflexivity.
Qed.

(** Debug build: the third request's tally overflows; two requests were
    forwarded and answered, the third was not. *)
Example forwarded_prefix_example :
  run_prof_trace (fun h => RespPtr (N.of_nat (length h) * 4096)) true (Some info_init) []
    [RAlloc (mkL 9223372036854775807 1); RDealloc 4096 (mkL 0 1); RAlloc (mkL 1 1); RAlloc (mkL 5 1)]
  = ([RAlloc (mkL 9223372036854775807 1); RDealloc 4096 (mkL 0 1)], [RespPtr 4096; RespPtr 8192], Panic Overflow).
Proof. vm_compute. reflexivity. Qed.

Scheme rtree_mind := Induction for rtree Sort Prop
  with rforest_mind := Induction for rforest Sort Prop.
Combined Scheme rtree_forest_ind from rtree_mind, rforest_mind.

Lemma prof_tree_forest_char chk :
  (forall t slot log,
      prof_tree chk slot log t =
      (do s <- slot_run chk slot (map op_of_req (pre_reqs_t t)); Ok (s, log ++ pre_reqs_t t, pre_ans_t t))) /\
  (forall f slot log,
      prof_forest chk slot log f =
      (do s <- slot_run chk slot (map op_of_req (pre_reqs_f f)); Ok (s, log ++ pre_reqs_f f, pre_ans_f f))).
Proof.
  apply rtree_forest_ind.
  - intros r a nested IH slot log. cbn [prof_tree pre_reqs_t pre_ans_t map].
    change (op_of_req r :: ?l) with ([op_of_req r] ++ l). rewrite slot_run_app, profiler_step_eq.
    destruct (slot_run chk slot [op_of_req r]) as [s|p]; [|reflexivity].
    cbn [bind fst snd]. rewrite IH, <- app_assoc.
    destruct (slot_run chk s (map op_of_req (pre_reqs_f nested))); reflexivity.
  - intros slot log. cbn [prof_forest pre_reqs_f pre_ans_f map]. rewrite app_nil_r.
    destruct slot; reflexivity.
  - intros t IHt rest IHf slot log. cbn [prof_forest pre_reqs_f pre_ans_f]. rewrite map_app, slot_run_app, IHt.
    destruct (slot_run chk slot (map op_of_req (pre_reqs_t t))) as [s|p]; [|reflexivity].
    cbn [bind fst snd]. rewrite IHf, <- app_assoc.
    destruct (slot_run chk s (map op_of_req (pre_reqs_f rest))); reflexivity.
Qed.

(** Transparency with re-entrant requests: for every forest (every behaviour
    of the wrapped allocator, nested requests included), what the wrapped
    allocator received is the pre-order of the requests — top-level and nested
    alike, one call each, nothing else —, every requester was handed the wrapped
    allocator's answer, and the tally is that of the pre-order sequence. *)
Theorem nested_transparent chk slot f s log rets :
  prof_forest chk slot [] f = Ok (s, log, rets) ->
  log = pre_reqs_f f /\ rets = pre_ans_f f /\
  slot_run chk slot (map op_of_req (pre_reqs_f f)) = Ok s.
Proof.
  rewrite (proj2 (prof_tree_forest_char chk)).
  destruct (slot_run chk slot (map op_of_req (pre_reqs_f f))) as [s'|p]; [|discriminate].
  intros E. injection E as <- <- <-. repeat split; reflexivity.
Qed.

Theorem nested_panic_only_from_tally chk slot f p :
  prof_forest chk slot [] f = Panic p ->
  slot_run chk slot (map op_of_req (pre_reqs_f f)) = Panic p.
Proof.
  rewrite (proj2 (prof_tree_forest_char chk)).
  destruct (slot_run chk slot (map op_of_req (pre_reqs_f f))) as [s'|q]; [discriminate|].
  intros E. injection E as ->. reflexivity.
Qed.

Theorem nested_release_total slot f :
  exists s, prof_forest false slot [] f = Ok (s, pre_reqs_f f, pre_ans_f f).
Proof.
  rewrite (proj2 (prof_tree_forest_char false)).
  destruct (slot_run_release slot (map op_of_req (pre_reqs_f f))) as [s ->]. eexists; reflexivity.
Qed.

Theorem nest_model_sb chk slot f s log rets :
  prof_forest chk slot [] f = Ok (s, log, rets) -> nest_sb f log rets = true.
Proof.
  intros H. destruct (nested_transparent _ _ _ _ _ _ H) as [-> [-> _]].
  apply prof_sb_meaning. split; reflexivity.
Qed.

(** A forest of leaves is the flat run of [C09_transparent]. *)
Fixpoint leaves (reqs : list req) (answers : list resp) : rforest :=
  match reqs, answers with
  | r :: rs, a :: ans => FCons (RNode r a FNil) (leaves rs ans)
  | _, _ => FNil
  end.

Lemma leaves_pre reqs : forall answers, length answers = length reqs ->
  pre_reqs_f (leaves reqs answers) = reqs /\ pre_ans_f (leaves reqs answers) = answers.
Proof.
  induction reqs as [|r rs IH]; intros [|a ans] H; try discriminate H; [split; reflexivity|].
  injection H as H. cbn. destruct (IH ans H) as [-> ->]. split; reflexivity.
Qed.

Theorem nested_flat inner chk slot reqs :
  prof_forest chk slot [] (leaves reqs (responses inner [] reqs)) =
  (do x <- run_prof inner chk slot [] reqs; Ok (snd x, fst (fst x), snd (fst x))).
Proof.
  rewrite (proj2 (prof_tree_forest_char chk)), run_prof_char.
  destruct (leaves_pre reqs (responses inner [] reqs) (responses_length inner [] reqs)) as [-> ->].
  destruct (slot_run chk slot (map op_of_req reqs)); reflexivity.
Qed.

(** Three levels, both a nested allocation and a nested deallocation. *)
Example nested_example :
  prof_forest true (Some info_init) []
    (FCons (RNode (RAlloc (mkL 100 8)) (RespPtr 4096)
              (FCons (RNode (RAllocZeroed (mkL 24 8)) (RespPtr 1)
                        (FCons (RNode (RDealloc 77 (mkL 8 1)) RespUnit FNil) FNil))
              (FCons (RNode (RRealloc 1 (mkL 24 8) 48) (RespPtr 0) FNil) FNil)))
     (FCons (RNode (RDealloc 4096 (mkL 100 8)) RespUnit FNil) FNil))
  = Ok (Some (mkI (mkT 1 24) tally_zero (mkT 2 124) (mkT 2 108) 0 2 40 140),
        [RAlloc (mkL 100 8); RAllocZeroed (mkL 24 8); RDealloc 77 (mkL 8 1); RRealloc 1 (mkL 24 8) 48; RDealloc 4096 (mkL 100 8)],
        [RespPtr 4096; RespPtr 1; RespUnit; RespPtr 0; RespUnit]).
Proof. vm_compute. reflexivity. Qed.
