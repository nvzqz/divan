(** The tokeniser is characterised from right to left ([tok_r]: a byte joins
    the token after it or starts one); [cmp_int] compares values; on
    well-formed tokens [token_cmp] is the comparison of keys, which makes
    [natural_cmp] a total preorder; cuts fall on UTF-8 boundaries. *)

From DivanV Require Import Base.Res Model.Natural Proofs.SortCmp.
Local Open Scope N_scope.

(** Put one more piece of text [kt] in front of a token list: it joins the
    first token if that is of its kind. *)
Definition glue (kt : token) (ts : list token) : list token :=
  match ts with
  | (k', t') :: r => if Bool.eqb k' (fst kt) then (fst kt, snd kt ++ t') :: r else kt :: ts
  | [] => [kt]
  end.

Fixpoint tok_r (s : bytes) : list token :=
  match s with
  | [] => []
  | c :: r => glue (is_digit c, [c]) (tok_r r)
  end.

Lemma eqb_neq_false : forall a b : bool, a <> b -> Bool.eqb a b = false.
Proof. intros [] []; simpl; congruence. Qed.

Lemma glue_other : forall kt t ts, fst t <> fst kt -> glue kt (t :: ts) = kt :: t :: ts.
Proof. intros kt [k' t'] ts H. simpl. rewrite (eqb_neq_false k' (fst kt) H). reflexivity. Qed.

Lemma glue_glue : forall k a b ts, glue (k, a) (glue (k, b) ts) = glue (k, a ++ b) ts.
Proof.
  intros k a b [|[k' t'] r]; simpl.
  - rewrite Bool.eqb_reflx. reflexivity.
  - destruct (Bool.eqb k' k) eqn:E; simpl.
    + rewrite Bool.eqb_reflx, app_assoc. reflexivity.
    + rewrite Bool.eqb_reflx. reflexivity.
Qed.

Lemma glue_app : forall kt t ts rest, glue kt ((t :: ts) ++ rest) = glue kt (t :: ts) ++ rest.
Proof. intros kt [k t] ts rest. simpl. destruct (Bool.eqb k (fst kt)); reflexivity. Qed.

Lemma glue_concat : forall kt ts, concat (map snd (glue kt ts)) = snd kt ++ concat (map snd ts).
Proof.
  intros [k t] [|[k' t'] r]; simpl; [reflexivity|].
  destruct (Bool.eqb k' k); simpl; [rewrite app_assoc|]; reflexivity.
Qed.

Lemma glue_Forall (Q : token -> Prop) :
  (forall k a b, Q (k, a) -> Q (k, b) -> Q (k, a ++ b)) ->
  forall k p ts, Q (k, p) -> Forall Q ts -> Forall Q (glue (k, p) ts).
Proof.
  intros App k p [|[k' t'] r] Hp Hts; simpl.
  - constructor; [exact Hp|constructor].
  - inversion Hts as [|? ? Ht Hr]; subst. destruct (Bool.eqb k' k) eqn:E.
    + apply Bool.eqb_prop in E. subst k'. constructor; [apply App; assumption|exact Hr].
    + constructor; [exact Hp|exact Hts].
Qed.

Definition first_kind (s : bytes) : option bool :=
  match s with [] => None | c :: _ => Some (is_digit c) end.

Definition last_kind (s : bytes) : option bool := first_kind (rev s).

Lemma tok_r_first : forall s, first_kind s = match tok_r s with [] => None | t :: _ => Some (fst t) end.
Proof.
  intros [|c r]; simpl; [reflexivity|].
  destruct (tok_r r) as [|[k' t'] ts]; simpl; [reflexivity|].
  destruct (Bool.eqb k' (is_digit c)); reflexivity.
Qed.

Lemma glue_kind_change : forall k p s, first_kind s <> Some k ->
  glue (k, p) (tok_r s) = (k, p) :: tok_r s.
Proof.
  intros k p s H. rewrite tok_r_first in H. destruct (tok_r s) as [|t ts]; [reflexivity|].
  apply glue_other. simpl. congruence.
Qed.

Lemma tok_go_glue : forall s k acc,
  tok_go k acc s = glue (k, rev acc) (tok_r s).
Proof.
  induction s as [|c r IH]; intros k acc; simpl; [reflexivity|].
  rewrite !IH. destruct (Bool.eqb (is_digit c) k) eqn:E.
  - apply Bool.eqb_prop in E. subst k. symmetry. apply glue_glue.
  - symmetry. apply (glue_kind_change k (rev acc) (c :: r)).
    simpl. intros [= E']. rewrite E', Bool.eqb_reflx in E. discriminate.
Qed.

Lemma tokenize_tok_r : forall s, tokenize s = tok_r s.
Proof. intros [|c r]; simpl; [reflexivity|]. apply tok_go_glue. Qed.

Definition wf_token (t : token) : Prop :=
  snd t <> [] /\ Forall (fun c => is_digit c = fst t) (snd t).

Lemma tok_r_wf : forall s, Forall wf_token (tok_r s).
Proof.
  induction s as [|c r IH]; simpl; [constructor|]. apply glue_Forall; [| |exact IH].
  - intros k a b [Na Ha] [_ Hb]. split; simpl in *.
    + destruct a; [congruence|discriminate].
    + apply Forall_app. split; assumption.
  - split; simpl; [discriminate|]. constructor; [reflexivity|constructor].
Qed.

Lemma tokenize_wf : forall s, Forall wf_token (tokenize s).
Proof. intros s. rewrite tokenize_tok_r. apply tok_r_wf. Qed.

Lemma tokenize_concat : forall s, concat (map snd (tokenize s)) = s.
Proof.
  intros s. rewrite tokenize_tok_r. induction s as [|c r IH]; simpl; [reflexivity|].
  rewrite glue_concat. simpl. rewrite IH. reflexivity.
Qed.

(** Adjacent tokens have different kinds (runs are maximal). *)
Fixpoint alternating (ts : list token) : Prop :=
  match ts with
  | t1 :: ((t2 :: _) as r) => fst t1 <> fst t2 /\ alternating r
  | _ => True
  end.

Lemma tok_r_alternating : forall s, alternating (tok_r s).
Proof.
  induction s as [|c r IH]; simpl; [exact I|].
  destruct (tok_r r) as [|[k' t'] ts]; simpl; [exact I|].
  destruct (Bool.eqb k' (is_digit c)) eqn:E; simpl.
  - apply Bool.eqb_prop in E. subst k'. destruct ts; simpl in *; [exact I|]. exact IH.
  - split; [|exact IH]. intros H. subst k'. rewrite Bool.eqb_reflx in E. discriminate.
Qed.

Lemma tok_r_run : forall k p r, p <> [] -> Forall (fun c => is_digit c = k) p ->
  tok_r (p ++ r) = glue (k, p) (tok_r r).
Proof.
  induction p as [|c p IH]; intros r Hne Hp; [congruence|].
  inversion Hp as [|? ? Hc Hp']; subst.
  destruct p as [|c' p']; [reflexivity|].
  change (glue (is_digit c, [c]) (tok_r ((c' :: p') ++ r)) = glue (is_digit c, [c] ++ c' :: p') (tok_r r)).
  rewrite IH by (assumption || discriminate). apply glue_glue.
Qed.

Lemma tok_r_app : forall a b k, first_kind b = Some k -> last_kind a <> Some k ->
  tok_r (a ++ b) = tok_r a ++ tok_r b.
Proof.
  induction a as [|c a IH]; intros b k Fb La; [reflexivity|].
  simpl. destruct a as [|c' a'].
  - apply (glue_kind_change (is_digit c) [c] b). rewrite Fb. intros [= ->]. apply La. reflexivity.
  - rewrite (IH b k Fb).
    + pose proof (tok_r_first (c' :: a')) as F.
      destruct (tok_r (c' :: a')) as [|t ts]; [discriminate|]. apply glue_app.
    + intros E. apply La. rewrite <- E. unfold last_kind. simpl.
      destruct (rev a' ++ [c']) eqn:R; [destruct (rev a'); discriminate|reflexivity].
Qed.

Lemma tok_r_digit_run : forall d s, d <> [] -> all_digits d = true -> first_kind s <> Some true ->
  tok_r (d ++ s) = (true, d) :: tok_r s.
Proof.
  intros d s Hne Hd Hs. rewrite (tok_r_run true) by (assumption || apply Forall_forall, forallb_forall, Hd).
  apply glue_kind_change. exact Hs.
Qed.

Definition p10 (n : nat) : N := 10 ^ N.of_nat n.

Lemma p10_S : forall n, p10 (S n) = 10 * p10 n.
Proof. intros n. unfold p10. rewrite Nat2N.inj_succ, N.pow_succ_r'. reflexivity. Qed.

Lemma is_digit_range : forall c, is_digit c = true <-> 48 <= c <= 57.
Proof. intros c. unfold is_digit. rewrite Bool.andb_true_iff, !N.leb_le. reflexivity. Qed.

Lemma all_digits_cons : forall c s, all_digits (c :: s) = true -> 48 <= c <= 57 /\ all_digits s = true.
Proof. intros c s H. apply Bool.andb_true_iff in H. rewrite <- is_digit_range. exact H. Qed.

Lemma digits_val_cons : forall c s, digits_val (c :: s) = (c - 48) * p10 (length s) + digits_val s.
Proof.
  intros c s. unfold digits_val. simpl. generalize (c - 48). induction s as [|d s IH]; intros acc; simpl.
  - change (p10 0) with 1. rewrite N.mul_1_r, N.add_0_r. reflexivity.
  - rewrite (IH (acc * 10 + (d - 48))), (IH (d - 48)), p10_S. ring.
Qed.

Lemma digits_val_lt : forall s, all_digits s = true -> digits_val s < p10 (length s).
Proof.
  induction s as [|c r IH]; intros H; [reflexivity|].
  apply all_digits_cons in H. destruct H as [Hc Hr]. specialize (IH Hr).
  rewrite digits_val_cons. simpl length. rewrite p10_S.
  assert (M : (c - 48) * p10 (length r) <= 9 * p10 (length r)) by (apply N.mul_le_mono_r; lia).
  lia.
Qed.

Lemma trim0_val : forall s, digits_val (trim0 s) = digits_val s.
Proof.
  induction s as [|c r IH]; simpl; [reflexivity|].
  destruct (c =? 48) eqn:E; [|reflexivity].
  apply N.eqb_eq in E. subst c. rewrite IH, digits_val_cons. reflexivity.
Qed.

Lemma trim0_digits : forall s, all_digits s = true -> all_digits (trim0 s) = true.
Proof.
  induction s as [|c r IH]; intros H; simpl; [reflexivity|].
  destruct (c =? 48); [|exact H]. apply IH. apply (all_digits_cons c r H).
Qed.

Definition no_lead0 (s : bytes) : Prop := match s with [] => True | c :: _ => c <> 48 end.

Lemma trim0_no_lead0 : forall s, no_lead0 (trim0 s).
Proof.
  induction s as [|c r IH]; simpl; [exact I|].
  destruct (c =? 48) eqn:E; [exact IH|]. simpl. apply N.eqb_neq. exact E.
Qed.

Lemma shorter_smaller : forall a b, all_digits a = true -> all_digits b = true -> no_lead0 b ->
  N.of_nat (length a) < N.of_nat (length b) -> digits_val a < digits_val b.
Proof.
  intros a [|y b] Ha Hb Nb HL; [destruct (N.nlt_0_r _ HL)|].
  apply all_digits_cons in Hb. destruct Hb as [Hy _]. simpl in Nb.
  pose proof (digits_val_lt a Ha) as Ua. rewrite digits_val_cons.
  simpl length in HL. rewrite Nat2N.inj_succ in HL. apply N.lt_succ_r in HL.
  assert (M : p10 (length a) <= p10 (length b)) by (apply N.pow_le_mono_r; [discriminate|exact HL]).
  assert (M' : 1 * p10 (length b) <= (y - 48) * p10 (length b)) by (apply N.mul_le_mono_r; lia).
  lia.
Qed.

Lemma N_add_compare_mono_l : forall p n m, (p + n ?= p + m) = (n ?= m).
Proof. intros p n m. rewrite <- !N2Z.inj_compare, !N2Z.inj_add. apply Z.add_compare_mono_l. Qed.

(** The leading digit decides, whatever follows below the unit [p]. *)
Lemma digit_step_lt : forall p u v x y, 48 <= x -> x < y -> u < p ->
  (x - 48) * p + u < (y - 48) * p + v.
Proof.
  intros p u v x y Hx H Hu.
  assert (M : (x - 48 + 1) * p <= (y - 48) * p) by (apply N.mul_le_mono_r; lia). lia.
Qed.

Lemma compare_digit_step : forall p u v x y, 48 <= x -> 48 <= y -> u < p -> v < p ->
  ((x - 48) * p + u ?= (y - 48) * p + v) = match x ?= y with Eq => u ?= v | o => o end.
Proof.
  intros p u v x y Hx Hy Hu Hv. destruct (N.compare_spec x y) as [->|H|H].
  - apply N_add_compare_mono_l.
  - apply N.compare_lt_iff, digit_step_lt; assumption.
  - apply N.compare_gt_iff, digit_step_lt; assumption.
Qed.

Lemma same_len_lex : forall a b, length a = length b ->
  all_digits a = true -> all_digits b = true ->
  bytes_cmp a b = (digits_val a ?= digits_val b).
Proof.
  induction a as [|x a IH]; intros [|y b] HL Ha Hb; try discriminate; [reflexivity|].
  apply all_digits_cons in Ha. destruct Ha as [Hx Ha].
  apply all_digits_cons in Hb. destruct Hb as [Hy Hb]. injection HL as HL.
  rewrite !digits_val_cons, <- HL, compare_digit_step.
  - rewrite <- (IH b HL Ha Hb). reflexivity.
  - apply Hx.
  - apply Hy.
  - apply digits_val_lt, Ha.
  - rewrite HL. apply digits_val_lt, Hb.
Qed.

Lemma is_nil_spec {A} : forall l : list A, is_nil l = true <-> l = [].
Proof. intros [|x l]; simpl; split; congruence. Qed.

(** The emptiness tests of [cmp_int] are special cases of its length comparison. *)
Lemma cmp_int_by_length : forall a b, cmp_int a b =
  match N.of_nat (length (trim0 a)) ?= N.of_nat (length (trim0 b)) with
  | Eq => bytes_cmp (trim0 a) (trim0 b)
  | o => o
  end.
Proof. intros a b. unfold cmp_int. destruct (trim0 a), (trim0 b); reflexivity. Qed.

(** [cmp_int] on two digit runs is the comparison of their values: leading
    zeros are ignored, the length of the runs is unbounded. *)
Lemma cmp_int_val : forall a b, all_digits a = true -> all_digits b = true ->
  cmp_int a b = (digits_val a ?= digits_val b).
Proof.
  intros a b Ha Hb. rewrite cmp_int_by_length, <- (trim0_val a), <- (trim0_val b).
  pose proof (trim0_digits a Ha) as Da. pose proof (trim0_digits b Hb) as Db.
  pose proof (trim0_no_lead0 a) as Na. pose proof (trim0_no_lead0 b) as Nb.
  destruct (N.compare_spec (N.of_nat (length (trim0 a))) (N.of_nat (length (trim0 b)))) as [E|E|E].
  - apply same_len_lex; auto. apply Nat2N.inj. exact E.
  - symmetry. apply N.compare_lt_iff. apply shorter_smaller; auto.
  - symmetry. apply N.compare_gt_iff. apply shorter_smaller; auto.
Qed.

Lemma tpo_bytes_cmp : tpo_on all bytes_cmp.
Proof. exact (tpo_lex N.compare tpo_N). Qed.

Lemma tpo_tkey_cmp : tpo_on all tkey_cmp.
Proof. exact (tpo_pair _ _ tpo_N (tpo_pair _ _ tpo_N tpo_bytes_cmp)). Qed.

(** The class of a token's key as a function of the first byte of its text:
    below the digits, a digit, above the digits.  Where the classes of two
    bytes differ, the bytes compare as their classes. *)
Definition byte_class (c : N) : N := if is_digit c then 1 else if c <? 48 then 0 else 2.

Lemma byte_class_spec : forall x,
  x < 48 /\ byte_class x = 0 \/ 48 <= x <= 57 /\ byte_class x = 1 \/ 57 < x /\ byte_class x = 2.
Proof.
  intros x. unfold byte_class, is_digit.
  destruct (N.leb_spec 48 x) as [L|L]; simpl.
  - right. destruct (N.leb_spec x 57) as [U|U]; [left; auto|right].
    rewrite (proj2 (N.ltb_ge x 48) L). auto.
  - left. rewrite (proj2 (N.ltb_lt x 48) L). auto.
Qed.

Lemma byte_class_lt : forall x y, byte_class x < byte_class y -> x < y.
Proof.
  intros x y.
  destruct (byte_class_spec x) as [[Hx ->]|[[Hx ->]|[Hx ->]]];
    destruct (byte_class_spec y) as [[Hy ->]|[[Hy ->]|[Hy ->]]];
    intros H; try discriminate H; lia.
Qed.

Lemma byte_class_compare : forall x y,
  match byte_class x ?= byte_class y with Eq => True | o => (x ?= y) = o end.
Proof.
  intros x y. destruct (N.compare_spec (byte_class x) (byte_class y)) as [_|H|H]; [exact I| |].
  - apply N.compare_lt_iff, byte_class_lt, H.
  - apply N.compare_gt_iff, byte_class_lt, H.
Qed.

Lemma wf_all_digits : forall t, wf_token t -> fst t = true -> all_digits (snd t) = true.
Proof. intros [k t] [_ H] E. simpl in *. subst k. apply forallb_forall, Forall_forall, H. Qed.

(** The pair is written with its type arguments: inferred, the second would be
    [list N], and rewriting does not find that pair in goals about [token]s. *)
Lemma token_key_nondigit : forall c (r : bytes), is_digit c = false ->
  token_key (@pair bool bytes false (c :: r)) = (byte_class c, (0, c :: r)).
Proof.
  intros c r H. unfold token_key, byte_class. cbn [fst snd]. rewrite H.
  destruct (c <? 48); reflexivity.
Qed.

Lemma token_cmp_key : forall x y, wf_token x -> wf_token y ->
  token_cmp x y = tkey_cmp (token_key x) (token_key y).
Proof.
  intros [kx tx] [ky ty] Wx Wy. unfold token_cmp. cbn [fst snd].
  destruct (kx && ky) eqn:K.
  - (* two digit runs: by value *)
    apply Bool.andb_true_iff in K. destruct K as [-> ->].
    rewrite cmp_int_val by (apply (wf_all_digits (true, _)); auto).
    unfold token_key, tkey_cmp. cbn [fst snd].
    destruct (digits_val tx ?= digits_val ty); reflexivity.
  - (* otherwise as strings: the classes of the first bytes decide unless they agree *)
    destruct Wx as [Nx Ax], Wy as [Ny Ay]. cbn [fst snd] in *.
    destruct tx as [|cx rx]; [congruence|]. destruct ty as [|cy ry]; [congruence|].
    apply Forall_inv in Ax, Ay.
    pose proof (byte_class_compare cx cy) as H.
    assert (E : forall k c (r : bytes), is_digit c = k -> fst (token_key (@pair bool bytes k (c :: r))) = byte_class c).
    { intros [|] c r D; [unfold byte_class; rewrite D; reflexivity|].
      rewrite (token_key_nondigit c r D). reflexivity. }
    unfold tkey_cmp. rewrite (E kx cx rx Ax), (E ky cy ry Ay).
    unfold bytes_cmp at 1. cbn [lex].
    destruct (byte_class cx ?= byte_class cy) eqn:C; [|rewrite H; reflexivity..].
    destruct kx, ky; try discriminate K.
    + exfalso. unfold byte_class in C. rewrite Ax, Ay in C. destruct (cy <? 48); discriminate C.
    + exfalso. unfold byte_class in C. rewrite Ax, Ay in C. destruct (cx <? 48); discriminate C.
    + rewrite !token_key_nondigit by assumption. reflexivity.
Qed.

Lemma natural_cmp_key : forall a b, natural_cmp a b = natural_spec a b.
Proof.
  intros a b. unfold natural_cmp, natural_spec, nat_key. rewrite lex_map.
  apply (lex_ext _ _ wf_token); [exact token_cmp_key|apply tokenize_wf|apply tokenize_wf].
Qed.

Lemma tpo_natural_cmp : tpo_on all natural_cmp.
Proof.
  apply (tpo_via all all nat_key natural_cmp (lex tkey_cmp)); [intros; exact I| |].
  - intros a b _ _. apply natural_cmp_key.
  - exact (tpo_lex _ tpo_tkey_cmp).
Qed.

(** [tpo_natural_cmp] spelled out, with what follows from it, for Properties/C16.v. *)
Lemma natural_total_preorder :
  (forall a, natural_cmp a a = Eq) /\
  (forall a b, natural_cmp b a = CompOpp (natural_cmp a b)) /\
  (forall a b c, natural_cmp a b <> Gt -> natural_cmp b c <> Gt -> natural_cmp a c <> Gt) /\
  (forall a b c, natural_cmp a b = Lt -> natural_cmp b c = Lt -> natural_cmp a c = Lt) /\
  (forall a b c, natural_cmp a b = Eq -> natural_cmp a c = natural_cmp b c).
Proof.
  pose proof tpo_natural_cmp as T. repeat split.
  - intros a. apply (tpo_refl all _ T). exact I.
  - intros a b. apply (tpo_anti all _ T); exact I.
  - intros a b c. apply (tpo_le_trans all _ T); exact I.
  - intros a b c. apply (tpo_lt_trans all _ T); exact I.
  - intros a b c. apply (tpo_eq_l all _ T); exact I.
Qed.

Lemma bytes_cmp_eq : forall a b, bytes_cmp a b = Eq -> a = b.
Proof. intros a b. apply lex_eq_iff; [exact N.compare_eq|exact N.compare_refl]. Qed.

Lemma tkey_cmp_eq : forall x y, tkey_cmp x y = Eq -> x = y.
Proof.
  intros [cx [vx tx]] [cy [vy ty]]. unfold tkey_cmp. simpl.
  destruct (cx ?= cy) eqn:E1; try discriminate. apply N.compare_eq in E1. subst cy.
  destruct (vx ?= vy) eqn:E2; try discriminate. apply N.compare_eq in E2. subst vy.
  intros H. apply bytes_cmp_eq in H. subst ty. reflexivity.
Qed.

(** Two names are tied exactly when they have the same non-digit runs and
    digit runs of equal value: "a01" and "a1" are tied, "a1" and "a1b" are not. *)
Lemma natural_cmp_eq_iff : forall a b, natural_cmp a b = Eq <-> nat_key a = nat_key b.
Proof.
  intros a b. rewrite natural_cmp_key. apply lex_eq_iff.
  - apply tkey_cmp_eq.
  - intros x. apply (tpo_refl all _ tpo_tkey_cmp). exact I.
Qed.

Lemma token_cmp_refl : forall t, wf_token t -> token_cmp t t = Eq.
Proof.
  intros t W. rewrite token_cmp_key by assumption.
  apply (tpo_refl all _ tpo_tkey_cmp). exact I.
Qed.

(** A maximal digit run [d1] resp. [d2] after a common prefix [p]: the names
    compare as the values of the runs; if the values are equal (whatever the
    number of leading zeros) the comparison continues with the rests. *)
Lemma natural_numeric : forall p d1 d2 s1 s2,
  last_kind p <> Some true ->
  d1 <> [] -> d2 <> [] -> all_digits d1 = true -> all_digits d2 = true ->
  first_kind s1 <> Some true -> first_kind s2 <> Some true ->
  natural_cmp (p ++ d1 ++ s1) (p ++ d2 ++ s2) =
  match digits_val d1 ?= digits_val d2 with
  | Eq => natural_cmp s1 s2
  | o => o
  end.
Proof.
  intros p d1 d2 s1 s2 Hp N1 N2 D1 D2 S1 S2.
  assert (TK : forall d s, d <> [] -> all_digits d = true -> first_kind s <> Some true ->
               tok_r (p ++ d ++ s) = tok_r p ++ (true, d) :: tok_r s).
  { intros d s Hn Hd Hs. rewrite (tok_r_app p (d ++ s) true), tok_r_digit_run; auto.
    destruct d as [|c r]; [congruence|]. apply all_digits_cons, proj1, is_digit_range in Hd.
    simpl. rewrite Hd. reflexivity. }
  unfold natural_cmp. rewrite !tokenize_tok_r.
  rewrite (TK d1 s1 N1 D1 S1), (TK d2 s2 N2 D2 S2).
  rewrite (lex_common_prefix token_cmp wf_token token_cmp_refl) by apply tok_r_wf.
  simpl lex. unfold token_cmp at 1. simpl.
  rewrite cmp_int_val by assumption. reflexivity.
Qed.

(** Well-formed UTF-8 (the sequences accepted by [core::str::from_utf8]). *)
Inductive utf8_valid : bytes -> Prop :=
| U_nil : utf8_valid []
| U_1 : forall b r, b < 128 -> utf8_valid r -> utf8_valid (b :: r)
| U_2 : forall b0 b1 r, 194 <= b0 <= 223 -> is_cont b1 = true -> utf8_valid r ->
    utf8_valid (b0 :: b1 :: r)
| U_3 : forall b0 b1 b2 r, 224 <= b0 <= 239 -> is_cont b1 = true -> is_cont b2 = true ->
    (b0 = 224 -> 160 <= b1) -> (b0 = 237 -> b1 <= 159) -> utf8_valid r ->
    utf8_valid (b0 :: b1 :: b2 :: r)
| U_4 : forall b0 b1 b2 b3 r, 240 <= b0 <= 244 ->
    is_cont b1 = true -> is_cont b2 = true -> is_cont b3 = true ->
    (b0 = 240 -> 144 <= b1) -> (b0 = 244 -> b1 <= 143) -> utf8_valid r ->
    utf8_valid (b0 :: b1 :: b2 :: b3 :: r).

Lemma utf8_valid_app : forall p t, utf8_valid p -> utf8_valid t -> utf8_valid (p ++ t).
Proof.
  intros p t Hp Ht. induction Hp; simpl; [exact Ht| | | |].
  - apply U_1; assumption.
  - apply U_2; assumption.
  - apply U_3; assumption.
  - apply U_4; assumption.
Qed.

Lemma high_not_digit : forall b, 128 <= b -> is_digit b = false.
Proof.
  intros b H. unfold is_digit. apply Bool.andb_false_iff. right.
  apply N.leb_gt, (N.lt_le_trans _ 128); [reflexivity|exact H].
Qed.

(** A multi-byte character consists of non-digit bytes, so it goes into one token. *)
Lemma tok_r_char : forall p r, p <> [] -> Forall (fun b => 128 <= b) p -> utf8_valid p ->
  Forall (fun t => utf8_valid (snd t)) (tok_r r) -> Forall (fun t => utf8_valid (snd t)) (tok_r (p ++ r)).
Proof.
  intros p r Hne Hp Vp IH. rewrite (tok_r_run false); [|exact Hne|].
  - apply (glue_Forall (fun t => utf8_valid (snd t))); [|exact Vp|exact IH].
    intros k a b. apply utf8_valid_app.
  - apply (Forall_impl _ high_not_digit Hp).
Qed.

Lemma is_cont_high : forall b, is_cont b = true -> 128 <= b.
Proof. intros b H. unfold is_cont in H. apply Bool.andb_true_iff in H. destruct H as [H _]. apply N.leb_le in H. exact H. Qed.

(** On valid UTF-8 every token the tokeniser cuts out is itself valid UTF-8:
    the [get_unchecked] splits never fall inside a multi-byte character (a cut
    is always next to an ASCII digit). *)
Lemma tokens_valid_utf8 : forall s, utf8_valid s -> Forall (fun t => utf8_valid (snd t)) (tokenize s).
Proof.
  intros s H. rewrite tokenize_tok_r. induction H.
  - constructor.
  - simpl. apply (glue_Forall (fun t => utf8_valid (snd t))); [|apply U_1; [assumption|constructor]|assumption].
    intros k x y. apply utf8_valid_app.
  - apply (tok_r_char [b0; b1]); [discriminate| |apply U_2; [assumption|assumption|constructor]|assumption].
    repeat constructor; [lia|apply is_cont_high; assumption].
  - apply (tok_r_char [b0; b1; b2]); [discriminate| |apply U_3; try assumption; constructor|assumption].
    repeat constructor; try lia; apply is_cont_high; assumption.
  - apply (tok_r_char [b0; b1; b2; b3]); [discriminate| |apply U_4; try assumption; constructor|assumption].
    repeat constructor; try lia; apply is_cont_high; assumption.
Qed.

(** Satisfiability of the hypothesis by a non-trivial value: "a1é2" *)
Example utf8_valid_example : utf8_valid [97; 49; 195; 169; 50].
Proof.
  apply U_1; [reflexivity|]. apply U_1; [reflexivity|].
  apply U_2; [split; discriminate|reflexivity|]. apply U_1; [reflexivity|]. constructor.
Qed.
