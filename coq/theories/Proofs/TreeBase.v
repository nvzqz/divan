(** Induction over trees and forests, string equality, what [update_first]
    preserves; construction, group insertion and [retain] keep trees well formed. *)
From DivanV Require Import Base.Res Model.Registry Model.Tree Proofs.ListFacts.
Local Open Scope N_scope.
Arguments mk_leaf : simpl never.

Section TreeInd.
  Variable P : tree -> Prop.
  Hypothesis HL : forall e a, P (Leaf e a).
  Hypothesis HP : forall r g ch, Forall P ch -> P (Parent r g ch).
  Fixpoint tree_ind' (t : tree) : P t :=
    match t with
    | Leaf e a => HL e a
    | Parent r g ch =>
        HP r g ch ((fix go (l : list tree) : Forall P l :=
                      match l with
                      | [] => Forall_nil P
                      | x :: tl => Forall_cons x (tree_ind' x) (go tl)
                      end) ch)
    end.
End TreeInd.

Lemma tree_ind_in : forall P : tree -> Prop,
  (forall e a, P (Leaf e a)) -> (forall r g ch, (forall t, In t ch -> P t) -> P (Parent r g ch)) -> forall t, P t.
Proof.
  intros P HL HP. induction t as [e a|r g ch IH] using tree_ind'; [apply HL|]. apply HP, Forall_forall, IH.
Qed.

Lemma forest_ind : forall P : list tree -> Prop,
  P [] ->
  (forall e a tl, P tl -> P (Leaf e a :: tl)) ->
  (forall r g ch tl, P ch -> P tl -> P (Parent r g ch :: tl)) ->
  forall l, P l.
Proof.
  intros P H0 HL HP.
  assert (Ht : forall t tl, P tl -> P (t :: tl)).
  { induction t as [e a|r g ch IH] using tree_ind'; intros tl Htl; [apply HL; exact Htl|].
    apply HP; [|exact Htl]. induction IH as [|x xs Hx _ IHxs]; [exact H0|apply Hx; exact IHxs]. }
  induction l as [|t tl IH]; [exact H0|apply Ht; exact IH].
Qed.

Lemma str_eqb_spec : forall a b, str_eqb a b = true <-> a = b.
Proof.
  induction a as [|x a IH]; destruct b as [|y b]; cbn; split; intro H; try congruence; try discriminate.
  - apply andb_true_iff in H. destruct H as [H1 H2]. apply N.eqb_eq in H1. apply IH in H2. congruence.
  - inversion H; subst. rewrite N.eqb_refl. cbn. apply IH. reflexivity.
Qed.

Lemma str_eqb_refl : forall a, str_eqb a a = true.
Proof. intro a. apply str_eqb_spec. reflexivity. Qed.

Lemma is_nil_spec : forall A (l : list A), is_nil l = true <-> l = [].
Proof. destruct l; cbn; split; congruence. Qed.

Lemma update_first_Forall : forall (Q : tree -> Prop) p f l l',
  (forall x, Q x -> Q (f x)) -> update_first p f l = Some l' -> Forall Q l -> Forall Q l'.
Proof.
  intros Q p f. induction l as [|x tl IH]; intros l' Hf H HQ; cbn in H; [discriminate|].
  inversion HQ as [|? ? Hx Htl]; subst. destruct (p x).
  - inversion H; subst. constructor; [apply Hf, Hx|exact Htl].
  - destruct (update_first p f tl) as [tl'|]; [|discriminate].
    inversion H; subst. constructor; [exact Hx|apply (IH tl' Hf eq_refl Htl)].
Qed.

Lemma update_first_forallb : forall (q : tree -> bool) p f l l',
  (forall x, q x = true -> q (f x) = true) ->
  update_first p f l = Some l' -> forallb q l = true -> forallb q l' = true.
Proof.
  intros q p f l l' Hf H Hq. apply forallb_Forall. apply forallb_Forall in Hq.
  exact (update_first_Forall _ p f l l' Hf H Hq).
Qed.

Lemma update_first_flat_map : forall B (h : tree -> list B) p f l l',
  (forall x, h (f x) = h x) -> update_first p f l = Some l' -> flat_map h l' = flat_map h l.
Proof.
  intros B h p f. induction l as [|x tl IH]; intros l' Hf H; cbn in H; [discriminate|].
  destruct (p x).
  - inversion H; subst. cbn. rewrite Hf. reflexivity.
  - destruct (update_first p f tl) as [tl'|]; [|discriminate].
    inversion H; subst. cbn. rewrite (IH tl' Hf eq_refl). reflexivity.
Qed.

Lemma update_first_not_nil : forall p f l l', update_first p f l = Some l' -> is_nil l' = false.
Proof.
  intros p f [|x tl] l' H; [discriminate|]. cbn in H. destruct (p x); [inversion H; reflexivity|].
  destruct (update_first p f tl); [inversion H; reflexivity|discriminate].
Qed.

Lemma update_first_ext : forall p p' f f' l,
  (forall x, p x = p' x) -> (forall x, f x = f' x) -> update_first p f l = update_first p' f' l.
Proof.
  intros p p' f f' l Hp Hf. induction l as [|x tl IH]; [reflexivity|]. cbn. rewrite Hp, Hf, IH. reflexivity.
Qed.

Lemma map_children_ext : forall f f' t, (forall l, f l = f' l) -> map_children f t = map_children f' t.
Proof. intros f f' [r g ch|e a] H; cbn; [rewrite H|]; reflexivity. Qed.

Lemma index_list_lt : forall n, forallb (fun i => i <? N.of_nat n) (index_list n) = true.
Proof.
  intro n. unfold index_list. apply forallb_forall. intros x Hx.
  apply in_map_iff in Hx. destruct Hx as [k [Hk Hin]]. apply in_seq in Hin. subst.
  apply N.ltb_lt. lia.
Qed.

Lemma wf_mk_leaf : forall e, wf_node (mk_leaf e) = true.
Proof.
  intro e. unfold mk_leaf. destruct (entry_runner e) as [|o vals] eqn:E; cbn; rewrite E.
  - reflexivity.
  - apply index_list_lt.
Qed.

Lemma wf_from_path : forall e rest cur, wf_node (from_path e cur rest) = true.
Proof.
  intros e. induction rest as [|n r IH]; intro cur; cbn [from_path]; cbn [wf_node forallb].
  - rewrite wf_mk_leaf. reflexivity.
  - rewrite IH. reflexivity.
Qed.

Lemma wf_forest_in : forall l t, wf_forest l = true -> In t l -> wf_node t = true.
Proof. intros l t H. apply forallb_forall. exact H. Qed.

Lemma wf_forest_cons : forall t l, wf_forest (t :: l) = true -> wf_node t = true /\ wf_forest l = true.
Proof. intros t l H. apply andb_true_iff in H. exact H. Qed.

Lemma wf_snoc : forall t x, wf_forest t = true -> wf_node x = true -> wf_forest (t ++ [x]) = true.
Proof. intros t x H Hx. apply forallb_app_intro; [exact H|]. cbn. rewrite Hx. reflexivity. Qed.

Lemma wf_map_children : forall f t,
  (forall l, wf_forest l = true -> wf_forest (f l) = true) ->
  wf_node t = true -> wf_node (map_children f t) = true.
Proof.
  intros f [r g ch|e a] Hf H; cbn in *; [|exact H]. apply Hf. exact H.
Qed.

Lemma wf_set_group : forall g t, wf_node t = true -> wf_node (set_group g t) = true.
Proof. intros g [r g0 ch|e a] H; cbn in *; exact H. Qed.

Lemma wf_insert_entry : forall e path t,
  wf_forest t = true -> wf_forest (insert_entry path e t) = true.
Proof.
  intros e. induction path as [|m rest IH]; intros t H; cbn.
  - apply wf_snoc; [exact H|apply wf_mk_leaf].
  - destruct (update_first (is_parent_named m) (map_children (insert_entry rest e)) t) as [t'|] eqn:E.
    + eapply update_first_forallb; [|exact E|exact H].
      intro x. apply wf_map_children, IH.
    + apply wf_snoc; [exact H|apply wf_from_path].
Qed.

Lemma wf_from_benches : forall es, wf_forest (from_benches es) = true.
Proof.
  intro es. apply (fold_left_inv (fun t => wf_forest t = true)); [|reflexivity].
  intros t e. apply wf_insert_entry.
Qed.

Lemma wf_update_or_same : forall p f t,
  (forall x, wf_node x = true -> wf_node (f x) = true) ->
  wf_forest t = true -> wf_forest (or_same t (update_first p f t)) = true.
Proof.
  intros p f t Hf H. destruct (update_first p f t) as [t'|] eqn:E; cbn; [|exact H].
  exact (update_first_forallb wf_node p f t t' Hf E H).
Qed.

Lemma wf_descend : forall k,
  (forall l, wf_forest l = true -> wf_forest (k l) = true) ->
  forall comps t, wf_forest t = true -> wf_forest (descend comps k t) = true.
Proof.
  intros k Hk. induction comps as [|c rest IH]; intros t H; cbn; [apply Hk, H|].
  apply wf_update_or_same; [|exact H]. intro x. apply wf_map_children, IH.
Qed.

Lemma wf_insert_group : forall g t, wf_forest t = true -> wf_forest (insert_group t g) = true.
Proof.
  intros g t. apply wf_descend. intro l. apply wf_update_or_same. exact (wf_set_group g).
Qed.

Lemma wf_build_tree : forall benches groups, wf_forest (build_tree benches groups) = true.
Proof.
  intros benches groups. apply (fold_left_inv (fun t => wf_forest t = true)); [|apply wf_from_benches].
  intros t g. apply wf_insert_group.
Qed.

Lemma wf_retain_node : forall f t pp, wf_node t = true -> wf_forest (retain_node f pp t) = true.
Proof.
  intros f. induction t as [e a|r g ch IH] using tree_ind_in; intros pp H.
  - cbn. destruct a as [args|].
    + destruct (is_nil _) eqn:E; [reflexivity|]. cbn. cbn in H.
      destruct (entry_runner e) as [|o vals]; [discriminate|].
      rewrite (forallb_filter _ _ _ H). reflexivity.
    + destruct (f _); [|reflexivity]. cbn. cbn in H. rewrite H. reflexivity.
  - cbn. destruct (is_nil _) eqn:E; [reflexivity|]. cbn. rewrite andb_true_r.
    apply forallb_flat_map. intros x Hx.
    apply (IH x Hx), (wf_forest_in ch), Hx. exact H.
Qed.

Lemma wf_retain : forall f t, wf_forest t = true -> wf_forest (retain f t) = true.
Proof.
  intros f t H. apply forallb_flat_map. intros x Hx. apply wf_retain_node, (wf_forest_in t), Hx. exact H.
Qed.
