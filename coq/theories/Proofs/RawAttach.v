(** C12: group attachment modulo a leading "r#" (F12).  [module_path!()] spells a
    raw-identifier module without the prefix when the name is not a keyword in
    the crate's edition ([mod r#try] in edition 2015 is [krate::try]) while the
    group's [raw_name] is the identifier as written. *)
From Coq Require Import Permutation.
From DivanV Require Import Base.Res Model.Registry Model.Tree Model.Driver
  Proofs.TreeBase Proofs.DriverExec Proofs.Flat.
Local Open Scope N_scope.

(** [insert_group] with the walked module path, the name looked for and the stored group as separate arguments. *)
Definition attach (comps : list str) (raw : str) (stored : group_entry) (l : list tree) : list tree :=
  descend comps (fun t => or_same t (update_first (is_parent_named_raw raw) (set_group stored) t)) l.

Lemma insert_group_attach : forall l g,
  insert_group l g = attach (module_components (g_meta g)) (m_raw (g_meta g)) g l.
Proof. reflexivity. Qed.

Lemma descend_ext : forall k k' comps l, (forall t, k t = k' t) -> descend comps k l = descend comps k' l.
Proof.
  intros k k'. induction comps as [|c rest IH]; intros l H; cbn [descend]; [apply H|].
  f_equal. apply update_first_ext; [reflexivity|]. intro x. apply map_children_ext. intro l0. apply IH. exact H.
Qed.

Lemma groups_attach_raw : forall comps raw raw' stored l,
  strip_raw raw = strip_raw raw' -> attach comps raw stored l = attach comps raw' stored l.
Proof.
  intros comps raw raw' stored l H. unfold attach. apply descend_ext. intro t. f_equal.
  apply update_first_ext; [|reflexivity]. intros [r g ch|e a]; cbn; [rewrite H|]; reflexivity.
Qed.

Fixpoint skel_names (l : list skel) : list str :=
  match l with
  | [] => []
  | SNode r _ :: tl => r :: skel_names tl
  | SLeaf :: tl => skel_names tl
  end.
(** No two sibling modules differ only by a leading "r#". *)
Definition no_raw_twins_level (l : list skel) : Prop := NoDup (map strip_raw (skel_names l)).

Lemma attach_name_in : forall raw r l,
  no_raw_twins_level l -> In r (skel_names l) -> strip_raw r = strip_raw raw -> attach_name raw l = r.
Proof.
  intros raw r. induction l as [|[|r0 ch] tl IH]; intros Hn Hin Hs; cbn in *.
  - contradiction.
  - apply IH; assumption.
  - unfold no_raw_twins_level in Hn. cbn in Hn. inversion Hn as [|? ? Hnot Hnd]; subst.
    destruct (str_eqb (strip_raw r0) (strip_raw raw)) eqn:E.
    + apply str_eqb_spec in E. destruct Hin as [Hin|Hin]; [exact Hin|].
      exfalso. apply Hnot. rewrite E, <- Hs. apply in_map. exact Hin.
    + destruct Hin as [Hin|Hin].
      * subst r0. rewrite Hs, str_eqb_refl in E. discriminate.
      * apply IH; assumption.
Qed.

Lemma attach_name_none : forall raw l,
  (forall r, In r (skel_names l) -> strip_raw r <> strip_raw raw) -> attach_name raw l = raw.
Proof.
  intros raw. induction l as [|[|r0 ch] tl IH]; intro H; cbn in *; [reflexivity|apply IH; exact H|].
  destruct (str_eqb (strip_raw r0) (strip_raw raw)) eqn:E.
  - apply str_eqb_spec in E. exfalso. apply (H r0 (or_introl eq_refl) E).
  - apply IH. intros r Hr. apply H. right. exact Hr.
Qed.

Lemma skel_names_perm : forall l l', Permutation l l' -> Permutation (skel_names l) (skel_names l').
Proof.
  intros l l' H. induction H as [|x l l' Hp IH|x y l|l l' l'' H1 IH1 H2 IH2].
  - apply Permutation_refl.
  - destruct x; cbn; [exact IH|apply perm_skip; exact IH].
  - destruct x, y; cbn; try apply Permutation_refl. apply perm_swap.
  - eapply Permutation_trans; eassumption.
Qed.

Lemma attach_name_order_independent : forall raw l l',
  Permutation l l' -> no_raw_twins_level l -> attach_name raw l = attach_name raw l'.
Proof.
  intros raw l l' Hp Hn.
  assert (Hn' : no_raw_twins_level l').
  { unfold no_raw_twins_level in *. eapply Permutation_NoDup; [|exact Hn]. apply Permutation_map. apply skel_names_perm. exact Hp. }
  destruct (in_dec (list_eq_dec N.eq_dec) (strip_raw raw) (map strip_raw (skel_names l))) as [Hin|Hnot].
  - apply in_map_iff in Hin. destruct Hin as [r [Hs Hr]].
    rewrite (attach_name_in raw r l Hn Hr Hs). symmetry. apply attach_name_in; [exact Hn'| |exact Hs].
    apply (Permutation_in r (skel_names_perm l l' Hp) Hr).
  - rewrite attach_name_none.
    + symmetry. apply attach_name_none. intros r Hr E. apply Hnot. rewrite <- E. apply in_map.
      apply (Permutation_in r (Permutation_sym (skel_names_perm l l' Hp)) Hr).
    + intros r Hr E. apply Hnot. rewrite <- E. apply in_map. exact Hr.
Qed.

(** The exact-match version (the code before the repair) loses the group.
    Edition 2015: [#[divan::bench_group(name = "G", ignore)] mod r#try { #[divan::bench] fn a() {} }]:
    the benchmark's module path is "k::try", the group's raw name "r#try". *)
Definition insert_group_exact (t : list tree) (g : group_entry) : list tree :=
  descend (module_components (g_meta g))
          (fun t => or_same t (update_first (is_parent_named (m_raw (g_meta g))) (set_group g) t)) t.

Definition x_k : str := [107].
Definition x_try : str := [116; 114; 121].
Definition x_rtry : str := [114; 35; 116; 114; 121].
Definition x_ktry : str := [107; 58; 58; 116; 114; 121].
Definition x_bench : bench_entry :=
  {| b_id := 0; b_meta := {| m_display := w_a; m_raw := w_a; m_modpath := x_ktry; m_line := 3; m_col := 5; m_opts := None |};
     b_runner := RPlain |}.
Definition x_group (raw : str) : group_entry :=
  {| g_id := 10; g_meta := {| m_display := w_G; m_raw := raw; m_modpath := x_k; m_line := 2; m_col := 1; m_opts := Some w_opts_ign |};
     g_generic := None |}.

Example exact_match_refuted :
  let T0 := from_benches [ABench x_bench] in
  (* as written: the group's ignore applies, [a] does not run *)
  runs_a (flat_exec cfg_plain [x_bench] [x_group x_rtry]) = false /\
  (* exact match: the group is not attached, [a] runs under "k::try::a" *)
  map xpath (exec_forest cfg_plain [] None (insert_group_exact T0 (x_group x_rtry))) = [[107; 58; 58; 116; 114; 121; 58; 58; 97]] /\
  (* match modulo "r#" (the model of the repaired code): attached, ignored; same for the other spelling *)
  exec_forest cfg_plain [] None (insert_group T0 (x_group x_rtry)) = [] /\
  exec_forest cfg_plain [] None (insert_group T0 (x_group x_try)) = [] /\
  exec_forest cfg_plain [] None (build_tree [x_bench] [x_group x_rtry]) = [].
Proof. repeat split; vm_compute; reflexivity. Qed.

Example no_raw_twins_example :
  no_raw_twins_level (map skel_of (from_benches [ABench x_bench; ABench w_bench_a])) /\
  ~ no_raw_twins_level [SNode x_try []; SNode x_rtry []].
Proof.
  split.
  - vm_compute. constructor; [|constructor; [intros []|constructor]]. intros [H|[]]. discriminate.
  - intro H. vm_compute in H. inversion H as [|? ? Hn _]. apply Hn. left. reflexivity.
Qed.
