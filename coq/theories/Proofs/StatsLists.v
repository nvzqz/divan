(** Facts about the list functions of Model/Stats.v: admissible sorted views,
    the sorted permutation [sort_vals], minimum and maximum, [last_error], sums. *)
From DivanV Require Import Base.Res Model.Stats.
From Coq Require Import Permutation Sorted.
Local Open Scope N_scope.

Lemma pair_eqb_eq a b : pair_eqb a b = true <-> a = b.
Proof.
  destruct a as [a1 a2], b as [b1 b2]. unfold pair_eqb. cbn [fst snd]. split.
  - intros H. apply andb_true_iff in H. destruct H as [H1 H2].
    apply N.eqb_eq in H1. apply N.eqb_eq in H2. subst. reflexivity.
  - intros [= -> ->]. rewrite !N.eqb_refl. reflexivity.
Qed.

Lemma remove_first_perm a l l' : remove_first a l = Some l' -> Permutation l (a :: l').
Proof.
  revert l'. induction l as [|x r IH]; intros l' H; cbn [remove_first] in H; [discriminate|].
  destruct (pair_eqb a x) eqn:E.
  - apply pair_eqb_eq in E. subst x. injection H as <-. apply Permutation_refl.
  - destruct (remove_first a r) as [r'|]; [|discriminate].
    injection H as <-. apply perm_trans with (x :: a :: r'); [apply perm_skip, IH; reflexivity|apply perm_swap].
Qed.

Lemma remove_first_in a l : In a l -> exists l', remove_first a l = Some l'.
Proof.
  induction l as [|x r IH]; intros H; [destruct H|]. cbn [remove_first].
  destruct (pair_eqb a x) eqn:E; [eexists; reflexivity|].
  destruct H as [->|H]; [rewrite (proj2 (pair_eqb_eq a a) eq_refl) in E; discriminate|].
  destruct (IH H) as [r' ->]. eexists; reflexivity.
Qed.

Lemma is_perm_iff l1 : forall l2, is_perm l1 l2 = true <-> Permutation l1 l2.
Proof.
  induction l1 as [|a r IH]; intros l2; cbn [is_perm].
  - destruct l2; split; try constructor; try discriminate.
    intros P. apply Permutation_nil_cons in P. contradiction.
  - split.
    + destruct (remove_first a l2) as [l2'|] eqn:R; [|discriminate]. intros H.
      apply perm_trans with (a :: l2'); [apply perm_skip, IH, H|].
      apply Permutation_sym, remove_first_perm, R.
    + intros P. destruct (remove_first_in a l2) as [l2' R]; [apply (Permutation_in _ P); left; reflexivity|].
      rewrite R. apply IH, (Permutation_cons_inv (a := a)).
      apply perm_trans with l2; [exact P|apply remove_first_perm, R].
Qed.

Definition le_snd (a b : N * N) : Prop := snd a <= snd b.

Lemma sorted_by_snd_iff l : sorted_by_snd l = true <-> StronglySorted le_snd l.
Proof.
  assert (sorted_by_snd l = true <-> Sorted le_snd l) as ->.
  { induction l as [|x [|y r] IH]; cbn [sorted_by_snd].
    - split; constructor.
    - split; [repeat constructor|reflexivity].
    - rewrite andb_true_iff, N.leb_le, IH. split.
      + intros [H1 H2]. constructor; [exact H2|constructor; exact H1].
      + intros H. inversion H as [|? ? Hr Hx]; subst. inversion Hx; subst. split; assumption. }
  split; [apply Sorted_StronglySorted; intros x y z; apply N.le_trans|apply StronglySorted_Sorted].
Qed.

Lemma StronglySorted_map {A B} (R : B -> B -> Prop) (f : A -> B) l :
  StronglySorted (fun a b => R (f a) (f b)) l -> StronglySorted R (map f l).
Proof. induction 1; cbn [map]; constructor; [assumption|]. apply Forall_map. assumption. Qed.

Lemma map_snd_index_from k l : map snd (index_from k l) = l.
Proof. revert k. induction l as [|x r IH]; intros k; cbn; [reflexivity|]. rewrite IH. reflexivity. Qed.

Lemma length_index_from k l : length (index_from k l) = length l.
Proof. revert k. induction l as [|x r IH]; intros k; cbn; [reflexivity|]. rewrite IH. reflexivity. Qed.

Lemma In_index_from l : forall k x,
  In x (index_from k l) <-> exists n, nth_error l n = Some (snd x) /\ fst x = k + N.of_nat n.
Proof.
  induction l as [|a r IH]; intros k x; cbn [index_from In].
  - split; [intros []|intros ([|n] & H & _); discriminate H].
  - rewrite IH. split.
    + intros [<-|(n & Hn & E)]; [exists 0%nat; split; [reflexivity|symmetry; apply N.add_0_r]|].
      exists (S n). split; [exact Hn|]. rewrite E, Nat2N.inj_succ, <- N.add_1_l. apply eq_sym, N.add_assoc.
    + intros ([|n] & Hn & E); [left|right; exists n; split; [exact Hn|]].
      * destruct x as [i d]. cbn [fst snd nth_error] in *. rewrite N.add_0_r in E. congruence.
      * rewrite E, Nat2N.inj_succ, <- N.add_1_l. apply N.add_assoc.
Qed.

Lemma In_indexed durs x : In x (indexed durs) <-> nth_error durs (N.to_nat (fst x)) = Some (snd x).
Proof.
  unfold indexed. rewrite In_index_from. split.
  - intros (n & Hn & ->). rewrite N.add_0_l, Nat2N.id. exact Hn.
  - intros H. eexists. split; [exact H|]. rewrite N2Nat.id. reflexivity.
Qed.

Lemma admissibleb_iff durs sv :
  admissibleb durs sv = true <->
  Permutation sv (indexed durs) /\ StronglySorted (fun a b => snd a <= snd b) sv.
Proof. unfold admissibleb. rewrite andb_true_iff, is_perm_iff, sorted_by_snd_iff. reflexivity. Qed.

Lemma admissible_perm durs sv : admissibleb durs sv = true -> Permutation sv (indexed durs).
Proof. intros H. apply admissibleb_iff in H. apply H. Qed.

Lemma admissible_vals durs sv :
  admissibleb durs sv = true ->
  Permutation (map snd sv) durs /\ StronglySorted N.le (map snd sv) /\ length sv = length durs.
Proof.
  intros H. apply admissibleb_iff in H. destruct H as [Hp Hs]. split; [|split].
  - rewrite <- (map_snd_index_from 0 durs). apply Permutation_map. exact Hp.
  - apply StronglySorted_map. exact Hs.
  - rewrite (Permutation_length Hp). apply length_index_from.
Qed.

Lemma insert_val_perm x l : Permutation (insert_val x l) (x :: l).
Proof.
  induction l as [|y r IH]; cbn [insert_val]; [apply Permutation_refl|].
  destruct (x <=? y); [apply Permutation_refl|].
  apply perm_trans with (y :: x :: r); [apply perm_skip, IH|apply perm_swap].
Qed.

Lemma sort_vals_perm l : Permutation (sort_vals l) l.
Proof.
  induction l as [|x r IH]; cbn [sort_vals]; [constructor|].
  apply perm_trans with (x :: sort_vals r); [apply insert_val_perm|apply perm_skip, IH].
Qed.

Lemma insert_val_sorted x l : StronglySorted N.le l -> StronglySorted N.le (insert_val x l).
Proof.
  induction l as [|y r IH]; intros H; cbn [insert_val].
  - constructor; constructor.
  - inversion H as [|? ? Hr Hy]; subst.
    destruct (x <=? y) eqn:E.
    + apply N.leb_le in E. constructor; [exact H|].
      constructor; [exact E|]. eapply Forall_impl; [|exact Hy]. intros z. apply N.le_trans, E.
    + apply N.leb_gt, N.lt_le_incl in E. constructor; [apply IH; exact Hr|].
      apply (Permutation_Forall (Permutation_sym (insert_val_perm x r))).
      constructor; assumption.
Qed.

Lemma sort_vals_sorted l : StronglySorted N.le (sort_vals l).
Proof. induction l as [|x r IH]; cbn [sort_vals]; [constructor|]. apply insert_val_sorted. exact IH. Qed.

(** Two sorted lists with the same elements are the same list. *)
Lemma sorted_perm_unique l1 : forall l2,
  StronglySorted N.le l1 -> StronglySorted N.le l2 -> Permutation l1 l2 -> l1 = l2.
Proof.
  induction l1 as [|a r IH]; intros l2 H1 H2 P.
  - apply Permutation_nil in P. subst. reflexivity.
  - destruct l2 as [|b r2]; [apply Permutation_sym, Permutation_nil_cons in P; contradiction|].
    inversion H1 as [|? ? Hr Ha]; subst. inversion H2 as [|? ? Hr2 Hb]; subst.
    assert (a = b) as ->.
    { destruct (Permutation_in a P (or_introl eq_refl)) as [->|Ia]; [reflexivity|].
      destruct (Permutation_in b (Permutation_sym P) (or_introl eq_refl)) as [->|Ib]; [reflexivity|].
      rewrite Forall_forall in Ha, Hb. apply N.le_antisymm; auto. }
    f_equal. apply IH; [exact Hr|exact Hr2|]. eapply Permutation_cons_inv. exact P.
Qed.

Lemma admissible_sorted_vals durs sv :
  admissibleb durs sv = true -> map snd sv = sort_vals durs.
Proof.
  intros H. destruct (admissible_vals _ _ H) as (P & S & _).
  apply sorted_perm_unique; [exact S|apply sort_vals_sorted|].
  apply perm_trans with durs; [exact P|apply Permutation_sym, sort_vals_perm].
Qed.

(** [list_min] and [list_max] fold a binary choice [op] that returns the one of
    its arguments that is [R]-below the other: [N.min] with [<=], [N.max]
    with [>=]. *)

Section Extremum.
  Variables (R : N -> N -> Prop) (op : N -> N -> N).
  Hypothesis R_refl : forall a, R a a.
  Hypothesis R_trans : forall a b c, R a b -> R b c -> R a c.
  Hypothesis op_spec : forall a b, op a b = a /\ R a b \/ op a b = b /\ R b a.

  Lemma fold_extremum l : forall x,
    (fold_left op l x = x \/ In (fold_left op l x) l) /\
    R (fold_left op l x) x /\ Forall (R (fold_left op l x)) l.
  Proof.
    induction l as [|a r IH]; intros x; cbn [fold_left].
    - split; [left; reflexivity|]. split; [apply R_refl|constructor].
    - destruct (IH (op x a)) as (I & Hx & F).
      assert (R (op x a) x /\ R (op x a) a) as [Rx Ra]
        by (destruct (op_spec x a) as [[-> ?]|[-> ?]]; split; auto).
      split; [|split; [|constructor]; eauto].
      destruct I as [->|I]; [|right; right; exact I].
      destruct (op_spec x a) as [[-> _]|[-> _]]; [left|right; left]; reflexivity.
  Qed.
End Extremum.

Lemma least_unique (R : N -> N -> Prop) l a b :
  (forall x y, R x y -> R y x -> x = y) ->
  In a l -> Forall (R a) l -> In b l -> Forall (R b) l -> a = b.
Proof. intros anti Ia Fa Ib Fb. rewrite Forall_forall in Fa, Fb. auto. Qed.

Lemma list_min_spec l : l <> [] -> In (list_min l) l /\ Forall (fun y => list_min l <= y) l.
Proof.
  destruct l as [|x r]; [congruence|]. intros _. unfold list_min.
  destruct (fold_extremum N.le N.min N.le_refl N.le_trans ltac:(intros; lia) r x) as (I & Hx & F).
  split; [|constructor; assumption].
  destruct I as [->|I]; [left; reflexivity|right; exact I].
Qed.

Lemma list_max_spec l : l <> [] -> In (list_max l) l /\ Forall (fun y => y <= list_max l) l.
Proof.
  intros Hne. unfold list_max.
  destruct (fold_extremum (fun a b => b <= a) N.max N.le_refl ltac:(cbv beta; intros; lia) ltac:(cbv beta; intros; lia) l 0)
    as (I & _ & F).
  split; [|exact F]. destruct I as [E|I]; [|exact I].
  (* the fold returned its seed 0: every element is <= 0, so the first one is 0 *)
  rewrite E in *. destruct l as [|x r]; [congruence|].
  inversion F as [|? ? Hx _]; subst. left. apply N.le_0_r in Hx. congruence.
Qed.

Lemma sorted_hd_min x r : StronglySorted N.le (x :: r) -> Forall (fun y => x <= y) (x :: r).
Proof. intros H. inversion H; subst. constructor; [apply N.le_refl|assumption]. Qed.

Lemma last_error_app {A} (l : list A) x : last_error (l ++ [x]) = Some x.
Proof.
  induction l as [|a r IH]; [reflexivity|].
  cbn [app last_error]. destruct (r ++ [x]) eqn:E; [destruct r; discriminate|exact IH].
Qed.

Lemma last_error_in {A} (l : list A) x : last_error l = Some x -> In x l.
Proof.
  induction l as [|a r IH]; cbn [last_error]; [discriminate|].
  destruct r as [|b r']; [intros [= ->]; left; reflexivity|]. intros H. right. apply IH. exact H.
Qed.

Lemma last_error_none {A} (l : list A) : last_error l = None -> l = [].
Proof.
  induction l as [|a r IH]; [reflexivity|]. cbn [last_error].
  destruct r as [|b r']; [discriminate|]. intros H. apply IH in H. discriminate.
Qed.

Lemma ends_of_nonempty {A} (l : list A) :
  l <> [] -> exists x y, hd_error l = Some x /\ last_error l = Some y /\ In x l /\ In y l.
Proof.
  intros Hne. destruct (last_error l) as [y|] eqn:Hl; [|apply last_error_none in Hl; contradiction].
  destruct l as [|x r]; [contradiction|]. exists x, y.
  split; [reflexivity|]. split; [reflexivity|]. split; [left; reflexivity|apply last_error_in, Hl].
Qed.

Lemma last_error_map {A B} (f : A -> B) l : last_error (map f l) = option_map f (last_error l).
Proof.
  induction l as [|a r IH]; [reflexivity|]. cbn [map last_error].
  destruct r as [|b r']; [reflexivity|]. exact IH.
Qed.

Lemma sorted_last_max l x :
  StronglySorted N.le l -> last_error l = Some x -> Forall (fun y => y <= x) l.
Proof.
  induction l as [|a r IH]; intros S H; [constructor|].
  inversion S as [|? ? Sr Ha]; subst. cbn [last_error] in H. destruct r as [|b r'].
  - injection H as ->. constructor; [apply N.le_refl|constructor].
  - constructor; [|exact (IH Sr H)].
    apply last_error_in in H. rewrite Forall_forall in Ha. apply Ha. exact H.
Qed.

Lemma admissible_hd durs sv s :
  admissibleb durs sv = true -> hd_error sv = Some s -> snd s = list_min durs.
Proof.
  intros H Hh. destruct (admissible_vals _ _ H) as (P & S & _).
  destruct sv as [|x r]; [discriminate|]. injection Hh as ->. cbn [map] in P, S.
  destruct (list_min_spec durs) as [Im Fm].
  { intros ->. apply Permutation_sym, Permutation_nil_cons in P. contradiction. }
  apply (least_unique N.le durs); [exact N.le_antisymm| | |exact Im|exact Fm].
  - apply (Permutation_in _ P). left. reflexivity.
  - apply (Permutation_Forall P), sorted_hd_min, S.
Qed.

Lemma admissible_last durs sv s :
  admissibleb durs sv = true -> last_error sv = Some s -> snd s = list_max durs.
Proof.
  intros H Hl. destruct (admissible_vals _ _ H) as (P & S & _).
  assert (last_error (map snd sv) = Some (snd s)) as Hl' by (rewrite last_error_map, Hl; reflexivity).
  destruct (list_max_spec durs) as [Im Fm].
  { intros ->. apply Permutation_sym, Permutation_nil in P. destruct sv; discriminate. }
  apply (least_unique (fun a b => b <= a) durs); [intros x y ? ?; apply N.le_antisymm; assumption| | |exact Im|exact Fm].
  - apply (Permutation_in _ P), last_error_in, Hl'.
  - apply (Permutation_Forall P), sorted_last_max; assumption.
Qed.

Lemma sum_list_app l1 l2 : sum_list (l1 ++ l2) = sum_list l1 + sum_list l2.
Proof. induction l1 as [|x r IH]; cbn [app sum_list]; [reflexivity|]. rewrite IH. apply N.add_assoc. Qed.

Lemma sum_list_perm l1 l2 : Permutation l1 l2 -> sum_list l1 = sum_list l2.
Proof. induction 1; cbn [sum_list]; lia. Qed.

Lemma sum_list_bounds l lo hi :
  Forall (fun y => lo <= y) l -> Forall (fun y => y <= hi) l ->
  N.of_nat (length l) * lo <= sum_list l /\ sum_list l <= N.of_nat (length l) * hi.
Proof.
  induction l as [|x r IH]; intros H1 H2; cbn [length sum_list]; [lia|].
  inversion H1; subst. inversion H2; subst. destruct (IH ltac:(assumption) ltac:(assumption)). nia.
Qed.

Lemma sum_list_in_le l x : In x l -> x <= sum_list l.
Proof.
  induction l as [|a r IH]; intros H; [destruct H|]. cbn [sum_list].
  destruct H as [->|H]; [lia|]. specialize (IH H). lia.
Qed.

Lemma sum_list_nth2_le l : forall a x y,
  nth_error l a = Some x -> nth_error l (S a) = Some y -> x + y <= sum_list l.
Proof.
  induction l as [|z r IH]; intros [|a] x y Hx Hy; try discriminate; cbn [sum_list].
  - injection Hx as ->. apply (nth_error_In r 0), sum_list_in_le in Hy. lia.
  - specialize (IH a x y Hx Hy). lia.
Qed.

Lemma sum_lt_len l B :
  Forall (fun c => c < B) l -> l <> [] -> sum_list l < N.of_nat (length l) * B.
Proof.
  induction 1 as [|x r Hx _ IH]; [congruence|]. intros _.
  cbn [sum_list length]. rewrite Nat2N.inj_succ, N.mul_succ_l.
  destruct r as [|y r']; [cbn; lia|]. specialize (IH ltac:(discriminate)). lia.
Qed.
