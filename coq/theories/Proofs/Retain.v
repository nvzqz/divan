(** Proofs about Model/Retain.v: for every tree, [retain] keeps exactly the
    selected cases (in order), removes exactly the inner nodes without a
    selected case below, and leaves no empty node behind. *)
From DivanV Require Import Base.Res Model.SplitVec Model.Filter Model.Retain
  Proofs.SplitVec Proofs.Filter Proofs.ListFacts.

Section TreeInd.
  Variable P : tree -> Prop.
  Hypothesis HParent : forall n children, Forall P children -> P (Parent n children).
  Hypothesis HLeaf : forall n args, P (Leaf n args).

  Fixpoint tree_ind' (t : tree) : P t :=
    match t with
    | Parent n children =>
        HParent n children
          ((fix go (l : list tree) : Forall P l :=
              match l with
              | [] => Forall_nil P
              | c :: r => Forall_cons c (tree_ind' c) (go r)
              end) children)
    | Leaf n args => HLeaf n args
    end.
End TreeInd.

Lemma list_str_eqb_eq (a b : list str) : list_eqb str_eqb a b = true <-> a = b.
Proof. apply list_eqb_eq, str_eqb_eq. Qed.

Lemma forallb_filter_map {A B : Type} (g : A -> option B) (p : B -> bool) (l : list A) :
  Forall (fun x => forall y, g x = Some y -> p y = true) l -> forallb p (filter_map g l) = true.
Proof.
  intros H. induction H as [|x l Hx _ IH]; [reflexivity|]. cbn [filter_map].
  destruct (g x) as [y|]; [|exact IH]. cbn [forallb]. rewrite (Hx y eq_refl). exact IH.
Qed.

Lemma no_empty_cases (t : tree) : forall pp,
  no_empty_tree t = true -> cases_tree pp t <> [].
Proof.
  induction t as [n children IH|n [[|a args]|]] using tree_ind'; intros pp Hne; try discriminate.
  cbn [no_empty_tree] in Hne. cbn [cases_tree tree_name].
  destruct IH as [|c r Hc _]; [discriminate|].
  cbn [forallb] in Hne. apply andb_true_iff in Hne.
  cbn [flat_map]. intros Happ. apply app_eq_nil in Happ.
  exact (Hc _ (proj1 Hne) (proj1 Happ)).
Qed.

(** An observable [k] (cases, inner nodes) of what is left of a tree. *)
Definition kept {C : Type} (k : tree -> list C) (o : option tree) : list C :=
  match o with Some t => k t | None => [] end.

Section WithSelection.
  Variable f : str -> bool.

  (** If what is left of each child shows [h] of the child, what is left of
      the children shows [h] of all of them. *)
  Lemma forest_kept {C : Type} (k h : str -> tree -> list C) (sp : str) (children : list tree) :
    Forall (fun t => forall pp, kept (k pp) (retain_tree f pp t) = h pp t) children ->
    flat_map (k sp) (filter_map (retain_tree f sp) children) = flat_map (h sp) children.
  Proof.
    intros H. induction H as [|c r Hc _ IH]; [reflexivity|].
    cbn [filter_map flat_map]. rewrite <- (Hc sp), <- IH.
    destruct (retain_tree f sp c); reflexivity.
  Qed.

  Lemma retain_tree_cases (t : tree) : forall pp,
    kept (cases_tree pp) (retain_tree f pp t) = filter f (cases_tree pp t).
  Proof.
    induction t as [n children IH|n [args|]] using tree_ind'; intros pp; cbn [retain_tree cases_tree tree_name].
    - rewrite filter_flat_map, <- (forest_kept cases_tree _ _ _ IH).
      fold (filter_map (retain_tree f (child_path pp n)) children).
      destruct (filter_map (retain_tree f (child_path pp n)) children); reflexivity.
    - rewrite filter_map_commute.
      destruct (filter (fun arg => f (arg_path (child_path pp n) arg)) args); reflexivity.
    - cbn [filter]. destruct (f (child_path pp n)); reflexivity.
  Qed.

  Lemma retain_tree_no_empty (t : tree) : forall pp t',
    retain_tree f pp t = Some t' -> no_empty_tree t' = true.
  Proof.
    induction t as [n children IH|n [args|]] using tree_ind'; intros pp t' H; cbn [retain_tree tree_name] in H.
    - fold (filter_map (retain_tree f (child_path pp n)) children) in H.
      assert (Hall : forallb no_empty_tree (filter_map (retain_tree f (child_path pp n)) children) = true)
        by (apply forallb_filter_map; revert IH; apply Forall_impl; intros c Hc; apply Hc).
      destruct (filter_map (retain_tree f (child_path pp n)) children); [discriminate|].
      injection H as <-. exact Hall.
    - destruct (filter (fun arg => f (arg_path (child_path pp n) arg)) args); [discriminate|].
      injection H as <-. reflexivity.
    - destruct (f (child_path pp n)); [|discriminate]. injection H as <-. reflexivity.
  Qed.

  Lemma retain_tree_removed (t : tree) (pp : str) :
    retain_tree f pp t = None <-> filter f (cases_tree pp t) = [].
  Proof.
    rewrite <- retain_tree_cases. destruct (retain_tree f pp t) as [t'|] eqn:E; cbn [kept].
    - split; [discriminate|]. intros H. destruct (no_empty_cases t' pp (retain_tree_no_empty t pp t' E) H).
    - split; reflexivity.
  Qed.

  Lemma retain_tree_survives (t : tree) (pp : str) :
    (exists t', retain_tree f pp t = Some t') <-> has_selected_below f pp t = true.
  Proof.
    unfold has_selected_below. rewrite existsb_filter_nil.
    pose proof (retain_tree_removed t pp) as [H1 H2].
    destruct (retain_tree f pp t) as [t'|].
    - destruct (filter f (cases_tree pp t)); [discriminate (H2 eq_refl)|].
      split; [reflexivity | exists t'; reflexivity].
    - rewrite (H1 eq_refl). split; [intros [t' H]|]; discriminate.
  Qed.

  Lemma retain_tree_parents (t : tree) : forall pp,
    kept (parents_tree pp) (retain_tree f pp t) = parents_with_selected f pp t.
  Proof.
    induction t as [n children IH|n [args|]] using tree_ind'; intros pp.
    - pose proof (retain_tree_survives (Parent n children) pp) as [Hs1 Hs2].
      cbn [parents_with_selected tree_name]. rewrite <- (forest_kept parents_tree _ _ _ IH).
      cbn [retain_tree tree_name] in *. fold (filter_map (retain_tree f (child_path pp n)) children) in *.
      destruct (filter_map (retain_tree f (child_path pp n)) children) as [|c r].
      + destruct (has_selected_below f pp (Parent n children)); [|reflexivity].
        destruct (Hs2 eq_refl) as [t' Ht']. discriminate.
      + rewrite (Hs1 (ex_intro _ _ eq_refl)). reflexivity.
    - cbn [retain_tree parents_with_selected tree_name].
      destruct (filter (fun arg => f (arg_path (child_path pp n) arg)) args); reflexivity.
    - cbn [retain_tree parents_with_selected tree_name]. destruct (f (child_path pp n)); reflexivity.
  Qed.

  Lemma retain_forest_spec (pp : str) (ts : list tree) :
    cases_forest pp (retain_forest f pp ts) = filter f (cases_forest pp ts)
    /\ forallb no_empty_tree (retain_forest f pp ts) = true
    /\ flat_map (parents_tree pp) (retain_forest f pp ts) = flat_map (parents_with_selected f pp) ts.
  Proof.
    unfold cases_forest, retain_forest. split; [|split].
    - rewrite filter_flat_map.
      apply (forest_kept cases_tree (fun pp t => filter f (cases_tree pp t))), Forall_all, retain_tree_cases.
    - apply forallb_filter_map, Forall_all. intros t. apply retain_tree_no_empty.
    - apply (forest_kept parents_tree), Forall_all, retain_tree_parents.
  Qed.

  (** [C13_retain_spec] *)
  Lemma retain_spec (ts : list tree) :
    cases (retain f ts) = filter f (cases ts)
    /\ forallb no_empty_tree (retain f ts) = true
    /\ parents (retain f ts) = flat_map (parents_with_selected f []) ts
    /\ (forall t pp, (exists t', retain_tree f pp t = Some t') <-> existsb f (cases_tree pp t) = true).
  Proof.
    destruct (retain_forest_spec [] ts) as (H1 & H2 & H3).
    split; [exact H1|]. split; [exact H2|]. split; [exact H3|]. intros t pp. apply retain_tree_survives.
  Qed.

  Lemma retain_in (ts : list tree) (c : str) :
    In c (cases (retain f ts)) <-> In c (cases ts) /\ f c = true.
  Proof.
    destruct (retain_spec ts) as [H _]. rewrite H. apply filter_In.
  Qed.

  Lemma retain_sb_meaning (ts out : list tree) :
    retain_sb f ts out = true <->
    cases out = filter f (cases ts)
    /\ forallb no_empty_tree out = true
    /\ parents out = flat_map (parents_with_selected f []) ts.
  Proof.
    unfold retain_sb. rewrite !andb_true_iff, !list_str_eqb_eq. apply and_assoc.
  Qed.

  Lemma retain_sb_model (ts : list tree) : retain_sb f ts (retain f ts) = true.
  Proof. apply retain_sb_meaning. destruct (retain_spec ts) as (H1 & H2 & H3 & _). repeat split; assumption. Qed.

End WithSelection.

(** The panicking-filter version agrees with the pure one when the filter
    never panics (which [fs_build_ok] shows for every reachable set). *)
Section WithTotalFilter.
  Variable fr : str -> res bool.
  Variable f : str -> bool.
  Hypothesis Hf : forall p, fr p = Ok (f p).

  Lemma filter_res_pure (g : str -> str) (args : list str) :
    filter_res (fun a => fr (g a)) args = Ok (filter (fun a => f (g a)) args).
  Proof.
    induction args as [|a r IH]; [reflexivity|].
    cbn [filter_res filter]. rewrite Hf, IH. cbn [bind].
    destruct (f (g a)); reflexivity.
  Qed.

  Lemma forest_res_pure (sp : str) (children : list tree) :
    Forall (fun t => forall pp, retain_tree_res fr pp t = Ok (retain_tree f pp t)) children ->
    filter_map_res (retain_tree_res fr sp) children = Ok (filter_map (retain_tree f sp) children).
  Proof.
    intros H. induction H as [|c r Hc _ IH]; [reflexivity|].
    cbn [filter_map_res filter_map]. rewrite (Hc sp). cbn [bind].
    fold (filter_map_res (retain_tree_res fr sp) r). rewrite IH. cbn [bind].
    fold (filter_map (retain_tree f sp) r).
    destruct (retain_tree f sp c); reflexivity.
  Qed.

  Lemma retain_tree_res_pure (t : tree) : forall pp,
    retain_tree_res fr pp t = Ok (retain_tree f pp t).
  Proof.
    induction t as [n children IH|n [args|]] using tree_ind'; intros pp; cbn [retain_tree_res retain_tree tree_name].
    - fold (filter_map_res (retain_tree_res fr (child_path pp n)) children).
      rewrite (forest_res_pure _ _ IH). cbn [bind].
      fold (filter_map (retain_tree f (child_path pp n)) children).
      destruct (filter_map (retain_tree f (child_path pp n)) children); reflexivity.
    - rewrite (filter_res_pure (arg_path (child_path pp n)) args). cbn [bind].
      destruct (filter (fun arg => f (arg_path (child_path pp n) arg)) args); reflexivity.
    - rewrite Hf. cbn [bind]. destruct (f (child_path pp n)); reflexivity.
  Qed.

  Lemma retain_res_pure (ts : list tree) : retain_res fr ts = Ok (retain f ts).
  Proof. apply forest_res_pure, Forall_all, retain_tree_res_pure. Qed.
End WithTotalFilter.

Lemma select_correct (matches : str -> str -> bool) (ops : list (pfilter * bool)) (ts : list tree) :
  select matches ops ts = Ok (retain (is_match_spec matches ops) ts).
Proof.
  unfold select. destruct (fs_build_ok matches ops) as (fs & -> & Hm).
  apply retain_res_pure. exact Hm.
Qed.

Lemma select_runs_iff (matches : str -> str -> bool) (ops : list (pfilter * bool)) (ts : list tree) :
  exists out, select matches ops ts = Ok out /\
    cases out = filter (is_match_spec matches ops) (cases ts) /\
    (forall c, In c (cases out) <-> In c (cases ts) /\ is_match_spec matches ops c = true) /\
    forallb no_empty_tree out = true /\
    parents out = flat_map (parents_with_selected (is_match_spec matches ops) []) ts.
Proof.
  exists (retain (is_match_spec matches ops) ts). split; [apply select_correct|].
  destruct (retain_spec (is_match_spec matches ops) ts) as (H1 & H2 & H3 & _).
  split; [exact H1|]. split; [intros c; apply retain_in|]. split; assumption.
Qed.

(** Examples: a leaf whose arguments are all filtered out disappears together
    with its (then empty) parents, a leaf with an empty argument list disappears
    even when everything is selected, inner-node names alone select nothing. *)
Definition ex_s (l : list N) : str := l.
Example retain_example :
  let a := [97%N] in let b := [98%N] in let x := [120%N] in let y := [121%N] in
  let t := [Parent a [Leaf b (Some [x; y]); Parent b [Leaf x None]]; Leaf y (Some [])] in
  (* select only "a::b::y" *)
  retain (fun p => str_eqb p (a ++ sep ++ b ++ sep ++ y)) t = [Parent a [Leaf b (Some [y])]]
  (* select everything: the leaf with no arguments at all still goes *)
  /\ retain (fun _ => true) t = [Parent a [Leaf b (Some [x; y]); Parent b [Leaf x None]]]
  (* a filter matching only the inner node "a::b" keeps nothing *)
  /\ retain (fun p => str_eqb p (a ++ sep ++ b)) t = [].
Proof. repeat split; reflexivity. Qed.
