(** The slot [insert_group] sets is the one the specification names: the
    options a benchmark gets on the built tree are those of the nearest
    enclosing groups (last registered group per module, up to [r#]). *)
From Coq Require Import Permutation.
From DivanV Require Import Base.Res Model.SplitVec Model.Filter Model.Options Model.TreeBuild
  Proofs.SplitVec Proofs.Filter Proofs.Options Proofs.TreeBuild.

Notation chain := (list (str * option nat)).

Lemma str_list_eqb_eq (a b : list str) : str_list_eqb a b = true <-> a = b.
Proof.
  replace (str_list_eqb a b) with (list_eqb str_eqb a b); [apply list_eqb_eq, str_eqb_eq|].
  revert b. induction a as [|x a IH]; intros [|y b]; cbn [str_list_eqb list_eqb]; try reflexivity.
  rewrite IH. reflexivity.
Qed.

Lemma str_list_eqb_app_cons (p : list str) (a : str) (l : list str) : str_list_eqb (p ++ a :: l) p = false.
Proof.
  apply not_true_iff_false. intros E. apply str_list_eqb_eq in E.
  apply (f_equal (@length str)) in E. rewrite app_length in E. cbn [length] in E. lia.
Qed.

(** What one [insert_group g addr raw] does to the chain of a leaf (relative to
    the forest it is applied to). *)
Fixpoint upd (g : nat) (addr : list str) (raw : str) (c : chain) {struct c} : chain :=
  match c with
  | [] => []
  | (m, slot) :: rest =>
      if hit addr raw m
      then match addr with
           | [] => (m, Some g) :: rest
           | _ :: addr' => (m, slot) :: upd g addr' raw rest
           end
      else c
  end.

Fixpoint upd_all (g : nat) (groups : list (list str * str)) (c : chain) : chain :=
  match groups with
  | [] => c
  | (p, raw) :: rest => upd_all (S g) rest (upd g p raw c)
  end.

(** The specification on a chain whose slots are the accumulators. *)
Fixpoint spec_from (g : nat) (groups : list (list str * str)) (prefix : list str) (c : chain) : chain :=
  match c with
  | [] => []
  | (m, slot) :: rest => (m, last_group_from g groups prefix m slot) :: spec_from g groups (prefix ++ [m]) rest
  end.

Lemma spec_from_nil (g : nat) (c : chain) : forall prefix, spec_from g [] prefix c = c.
Proof. induction c as [|[m slot] rest IH]; intros prefix; cbn [spec_from last_group_from]; [|rewrite IH]; reflexivity. Qed.

(** A group addressed outside [prefix] sets nothing at or below [prefix]. *)
Lemma spec_from_skip (g : nat) (addr : list str) (raw : str) (gs : list (list str * str)) (c : chain) : forall prefix,
  (forall ext, addr <> prefix ++ ext) ->
  spec_from g ((addr, raw) :: gs) prefix c = spec_from (S g) gs prefix c.
Proof.
  induction c as [|[m slot] rest IH]; intros prefix H; cbn [spec_from]; [reflexivity|].
  cbn [last_group_from].
  destruct (str_list_eqb addr prefix) eqn:E.
  - apply str_list_eqb_eq in E. destruct (H []). rewrite app_nil_r. exact E.
  - cbn [andb]. f_equal. apply IH. intros ext Heq. apply (H ([m] ++ ext)). rewrite app_assoc. exact Heq.
Qed.

Lemma spec_from_upd (g : nat) (raw : str) (gs : list (list str * str)) (c : chain) : forall prefix rem,
  spec_from (S g) gs prefix (upd g rem raw c) = spec_from g ((prefix ++ rem, raw) :: gs) prefix c.
Proof.
  induction c as [|[m slot] rest IH]; intros prefix rem; [reflexivity|].
  destruct rem as [|a rem]; cbn [upd hit spec_from last_group_from].
  - rewrite app_nil_r, (proj2 (str_list_eqb_eq prefix prefix) eq_refl). cbn [andb].
    rewrite (spec_from_skip g prefix raw gs rest (prefix ++ [m])).
    + destruct (str_eqb (strip_raw raw) (strip_raw m)); reflexivity.
    + intros ext Heq. apply (f_equal (@length str)) in Heq. rewrite !app_length in Heq. cbn [length] in Heq. lia.
  - rewrite str_list_eqb_app_cons. cbn [andb].
    destruct (str_eqb m a) eqn:Ema; cbn [spec_from]; f_equal.
    + apply str_eqb_eq in Ema. subst a. rewrite IH, <- app_assoc. reflexivity.
    + symmetry. apply spec_from_skip.
      intros ext Heq. rewrite <- app_assoc in Heq. apply app_inv_head in Heq.
      injection Heq as Heq _. subst a. rewrite str_eqb_refl in Ema. discriminate.
Qed.

Lemma upd_all_spec (groups : list (list str * str)) : forall g c,
  upd_all g groups c = spec_from g groups [] c.
Proof.
  induction groups as [|[p raw] rest IH]; intros g c; cbn [upd_all].
  - symmetry. apply spec_from_nil.
  - rewrite IH. apply (spec_from_upd g raw rest c [] p).
Qed.

Lemma spec_from_plain (groups : list (list str * str)) (p : list str) : forall prefix,
  spec_from 0 groups prefix (plain p) = spec_chain_from groups prefix p.
Proof.
  induction p as [|m rest IH]; intros prefix; [reflexivity|].
  cbn [plain map spec_from spec_chain_from]. unfold enclosing_group. f_equal. apply IH.
Qed.

Definition pfx (above : chain) (ic : nat * chain) : nat * chain := (fst ic, above ++ snd ic).
Definition updc (g : nat) (addr : list str) (raw : str) (ic : nat * chain) : nat * chain := (fst ic, upd g addr raw (snd ic)).

Section BtreeInd.
  Variable P : btree -> Prop.
  Hypothesis HP : forall r g ch, Forall P ch -> P (BParent r g ch).
  Hypothesis HL : forall b, P (BLeaf b).
  Fixpoint btree_ind' (t : btree) : P t :=
    match t with
    | BParent r g ch =>
        HP r g ch ((fix go (l : list btree) : Forall P l :=
                      match l with [] => Forall_nil P | c :: rest => Forall_cons c (btree_ind' c) (go rest) end) ch)
    | BLeaf b => HL b
    end.
End BtreeInd.

Lemma leaf_chains_tree_pfx (t : btree) : forall A B, leaf_chains_tree (A ++ B) t = map (pfx A) (leaf_chains_tree B t).
Proof.
  induction t as [r g ch IH|b] using btree_ind'; intros A B; [|reflexivity].
  cbn [leaf_chains_tree]. rewrite <- app_assoc.
  induction IH as [|c rest Hc _ IHrest]; [reflexivity|]. cbn [flat_map]. rewrite map_app, Hc, IHrest. reflexivity.
Qed.

Lemma chains_pfx (A : chain) (tree : list btree) : chains A tree = map (pfx A) (chains [] tree).
Proof.
  unfold chains. induction tree as [|t tree IH]; [reflexivity|].
  cbn [flat_map]. rewrite map_app, <- IH, <- leaf_chains_tree_pfx, app_nil_r. reflexivity.
Qed.

Lemma chains_focus (pre post : list btree) (r : str) (s : option nat) (ch : list btree) :
  chains [] (pre ++ BParent r s ch :: post)
  = chains [] pre ++ map (pfx [(r, s)]) (chains [] ch) ++ chains [] post.
Proof.
  rewrite chains_app, chains_cons, chains_parent. cbn [app]. rewrite (chains_pfx [(r, s)]). reflexivity.
Qed.

Lemma chains_unchanged (g : nat) (addr : list str) (raw : str) (tree : list btree) :
  (forall t, In t tree -> hits addr raw t = false) ->
  map (updc g addr raw) (chains [] tree) = chains [] tree.
Proof.
  induction tree as [|t rest IH]; intros H; [reflexivity|].
  rewrite chains_cons, map_app, IH by (intros x Hin; apply H; right; exact Hin). f_equal.
  destruct t as [r s ch|b]; [|reflexivity].
  rewrite chains_parent. cbn [app].
  rewrite chains_pfx, map_map. apply map_ext. intros [i c]. unfold updc, pfx. cbn [fst snd app upd].
  rewrite (H _ (or_introl eq_refl) : hit addr raw r = false). reflexivity.
Qed.

(** One parent changes, and its chains change as [upd] says: so does the forest,
    provided no other parent is hit. *)
Lemma chains_replace (g : nat) (addr : list str) (raw : str) (pre post : list btree) (r : str)
  (s s' : option nat) (ch ch' : list btree) :
  (forall t, In t (pre ++ post) -> hits addr raw t = false) ->
  map (updc g addr raw) (map (pfx [(r, s)]) (chains [] ch)) = map (pfx [(r, s')]) (chains [] ch') ->
  chains [] (pre ++ BParent r s' ch' :: post) = map (updc g addr raw) (chains [] (pre ++ BParent r s ch :: post)).
Proof.
  intros Hno Hmid. rewrite !chains_focus, !map_app, Hmid, !chains_unchanged; [reflexivity|..];
    intros t Hin; apply Hno, in_or_app; [right|left]; exact Hin.
Qed.

(** Siblings distinct up to [r#]: the first parent hit is the only one. *)
Lemma hit_unique (addr : list str) (raw : str) (pre post : list btree) (r : str) (s : option nat) (ch : list btree) :
  uniq_by strip_raw (pre ++ BParent r s ch :: post) -> hit addr raw r = true ->
  (forall t, In t pre -> hits addr raw t = false) ->
  forall t, In t (pre ++ post) -> hits addr raw t = false.
Proof.
  intros H Hr Hpre t Hin. apply in_app_or in Hin. destruct Hin as [Hin|Hin]; [exact (Hpre t Hin)|].
  destruct t as [r0 s0 ch0|b]; [|reflexivity]. cbn [hits].
  destruct (hit addr raw r0) eqn:E; [exfalso|reflexivity].
  assert (Heq : strip_raw r = strip_raw r0)
    by (destruct addr; cbn [hit] in *; apply str_eqb_eq in Hr, E; congruence).
  inversion H as [t Hnd _]; subst. rewrite parent_names_app, map_app in Hnd. cbn [parent_names map] in Hnd.
  apply NoDup_remove_2 in Hnd. apply Hnd, in_or_app. right. rewrite Heq.
  apply in_map, in_parent_names. exists s0, ch0. exact Hin.
Qed.

Lemma insert_group_chains (g : nat) (gp : list str) (raw : str) (tree : list btree) :
  uniq_by strip_raw tree -> chains [] (insert_group g gp raw tree) = map (updc g gp raw) (chains [] tree).
Proof.
  apply (insert_group_cases g raw
           (fun gp t t' => uniq_by strip_raw t -> chains [] t' = map (updc g gp raw) (chains [] t))).
  - intros addr t Hno _. symmetry. apply chains_unchanged. exact Hno.
  - intros pre r s ch post Hpre Hhit H. apply chains_replace; [exact (hit_unique [] raw _ _ _ _ _ H Hhit Hpre)|].
    rewrite map_map. apply map_ext. intros [i c]. unfold updc, pfx. cbn [fst snd app upd]. rewrite Hhit. reflexivity.
  - intros a rem pre s ch ch' post Hpre IH H.
    apply chains_replace; [exact (hit_unique (a :: rem) raw _ _ _ _ _ H (str_eqb_refl a) Hpre)|].
    rewrite (IH (uniq_by_child _ _ _ _ _ _ H)), !map_map. apply map_ext. intros [i c].
    unfold updc, pfx. cbn [fst snd app upd hit]. rewrite str_eqb_refl. reflexivity.
Qed.

Definition updc_all (g : nat) (groups : list (list str * str)) (ic : nat * chain) : nat * chain :=
  (fst ic, upd_all g groups (snd ic)).

Lemma insert_groups_from_chains (groups : list (list str * str)) : forall g tree,
  uniq_by strip_raw tree -> chains [] (insert_groups_from g groups tree) = map (updc_all g groups) (chains [] tree).
Proof.
  induction groups as [|[p raw] rest IH]; intros g tree H; cbn [insert_groups_from].
  - symmetry. etransitivity; [|apply map_id]. apply map_ext. intros [i c]. reflexivity.
  - rewrite (IH (S g) _ (insert_group_uniq_by strip_raw g p raw tree H)), (insert_group_chains g p raw tree H), map_map.
    apply map_ext. intros [i c]. reflexivity.
Qed.

Fixpoint spec_chains_from (groups : list (list str * str)) (i : nat) (paths : list (list str)) : list (nat * chain) :=
  match paths with
  | [] => []
  | p :: rest => (i, spec_chain groups p) :: spec_chains_from groups (S i) rest
  end.

Lemma expected_to_spec (groups : list (list str * str)) (paths : list (list str)) : forall i,
  map (updc_all 0 groups) (expected_from i paths) = spec_chains_from groups i paths.
Proof.
  induction paths as [|p rest IH]; intros i; [reflexivity|].
  cbn [expected_from map spec_chains_from]. rewrite IH. f_equal.
  unfold updc_all, spec_chain. cbn [fst snd]. rewrite upd_all_spec, spec_from_plain. reflexivity.
Qed.

(** The hypothesis, on the inputs: no two module names that differ by an [r#]
    prefix only.  It makes sibling parents distinct even up to [r#]. *)
Definition no_raw_twins (paths : list (list str)) : Prop :=
  forall c d, In c (concat paths) -> In d (concat paths) -> strip_raw c = strip_raw d -> c = d.

Lemma from_benches_twins (paths : list (list str)) : no_raw_twins paths -> uniq_by strip_raw (from_benches paths).
Proof.
  intros H. apply (built_uniq_by strip_raw (fun c => In c (concat paths))), from_benches_built; [exact H|].
  apply Forall_forall. intros p Hp. apply Forall_forall. intros c Hc. apply in_concat. exists p. split; assumption.
Qed.

(** [C15_tree_groups_shape] *)
Lemma tree_groups_shape (paths : list (list str)) (groups : list (list str * str)) :
  no_raw_twins paths ->
  Permutation (leaf_chains (build_tree paths groups)) (spec_chains_from groups 0 paths).
Proof.
  intros H. unfold build_tree. change (leaf_chains ?t) with (chains [] t).
  rewrite (insert_groups_from_chains groups 0 _ (from_benches_twins paths H)), <- expected_to_spec.
  apply Permutation_map, from_benches_spec.
Qed.

Fixpoint spec_options_from (runner : options) (groups : list (list str * str)) (gopt : nat -> option options)
  (bopt : nat -> option options) (i : nat) (paths : list (list str)) : list (nat * options) :=
  match paths with
  | [] => []
  | p :: rest => (i, spec_options_of_bench runner groups gopt (bopt i) p) :: spec_options_from runner groups gopt bopt (S i) rest
  end.

Lemma spec_chains_to_options (runner : options) (gopt bopt : nat -> option options)
  (groups : list (list str * str)) (paths : list (list str)) : forall i,
  map (fun bc : nat * chain =>
         (fst bc,
          resolve runner (map (fun rg => match snd rg with Some g => gopt g | None => None end) (snd bc)) (bopt (fst bc))))
      (spec_chains_from groups i paths)
  = spec_options_from runner groups gopt bopt i paths.
Proof.
  induction paths as [|p rest IH]; intros i; [reflexivity|].
  cbn [spec_chains_from map spec_options_from fst snd]. rewrite IH. f_equal.
  unfold spec_options_of_bench. rewrite spec_effective_correct. reflexivity.
Qed.

(** [C15_options_on_tree_spec] *)
Lemma options_on_tree_correct (runner : options) (gopt bopt : nat -> option options)
  (paths : list (list str)) (groups : list (list str * str)) :
  no_raw_twins paths ->
  Permutation (options_on_tree runner gopt bopt (build_tree paths groups))
              (spec_options_from runner groups gopt bopt 0 paths).
Proof.
  intros H. unfold options_on_tree. rewrite <- spec_chains_to_options.
  apply Permutation_map, tree_groups_shape, H.
Qed.

(** The hypothesis is satisfiable by paths that do contain a raw identifier
    and a function named like a module. *)
Example no_raw_twins_example :
  no_raw_twins [[[109%N]; [114%N; 35%N; 116%N]]; [[109%N]]; [[109%N]; [115%N]]].
Proof.
  (* On these names [strip_raw] has a left inverse: only "t" came from a raw identifier. *)
  set (back := fun y : str => if str_eqb y [116%N] then [114%N; 35%N; 116%N] else y).
  assert (Hback : forall c, In c [[109%N]; [114%N; 35%N; 116%N]; [109%N]; [109%N]; [115%N]] -> back (strip_raw c) = c).
  { intros c Hc. repeat destruct Hc as [<-|Hc]; try reflexivity. destruct Hc. }
  intros c d Hc Hd E. rewrite <- (Hback c Hc), <- (Hback d Hd), E. reflexivity.
Qed.
