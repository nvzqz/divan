(** The counts stored for one counter kind by the recording loop: for a
    per-input kind one per recorded sample, each that sample's own per-iteration
    value; a constant set afterwards with [Bencher::counter] replaces them. *)
From DivanV Require Import Base.Res Model.Stats Proofs.StatsProv.
Local Open Scope N_scope.

Definition stored_value (p : N * list N) : N := (sum_list (snd p) / fst p) mod 2 ^ 64.

(** Loop invariant: the kind is per-input, and the stored counts are exactly
    the per-iteration values of the samples still stored, in order. *)
Definition store_inv (st : nat * counter_in) (kept : list (N * list N)) : Prop :=
  ci_input (snd st) = true /\ fst st = length kept /\ ci_counts (snd st) = map stored_value kept.

Definition round_wf (round : bool * N * list (list N)) : Prop :=
  snd (fst round) <> 0 /\ Forall (fun x => sum_list x < 2 ^ 128) (snd round).

Lemma push_sample_inv ssize st kept x :
  store_inv st kept -> ssize <> 0 -> sum_list x < 2 ^ 128 ->
  exists st', push_sample ssize st x = Ok st' /\ store_inv st' (kept ++ [(ssize, x)]).
Proof.
  intros (Hi & Hn & Hc) Hs Hx. unfold push_sample. rewrite Hi.
  destruct (counter_per_iter x ssize Hs Hx) as [-> _]. cbn [bind]. eexists. split; [reflexivity|].
  split; [reflexivity|]. cbn [fst snd ci_counts]. split.
  - rewrite app_length, Hn. symmetry. apply Nat.add_1_r.
  - rewrite map_app, Hc. reflexivity.
Qed.

Lemma push_samples_inv ssize raw : forall st kept,
  store_inv st kept -> ssize <> 0 -> Forall (fun x => sum_list x < 2 ^ 128) raw ->
  exists st', push_samples ssize st raw = Ok st' /\ store_inv st' (kept ++ map (fun x => (ssize, x)) raw).
Proof.
  induction raw as [|x r IH]; intros st kept Hinv Hs Hf; cbn [push_samples map].
  - exists st. rewrite app_nil_r. split; [reflexivity|exact Hinv].
  - inversion Hf as [|? ? Hx Hr]; subst.
    destruct (push_sample_inv ssize st kept x Hinv Hs Hx) as (st1 & -> & Hinv1). cbn [bind].
    destruct (IH st1 _ Hinv1 Hs Hr) as (st2 & -> & Hinv2). exists st2. split; [reflexivity|].
    rewrite <- app_assoc in Hinv2. exact Hinv2.
Qed.

Lemma record_rounds_inv rounds : forall st kept,
  store_inv st kept -> Forall round_wf rounds ->
  exists st', record_rounds st rounds = Ok st' /\ store_inv st' (kept_samples kept rounds).
Proof.
  induction rounds as [|[[tune ssize] raw] rest IH]; intros st kept Hinv Hwf; cbn [record_rounds kept_samples].
  - exists st. split; [reflexivity|exact Hinv].
  - inversion Hwf as [|? ? [Hs Hraw] Hrest]; subst. cbn [fst snd] in Hs, Hraw.
    unfold record_round.
    assert (store_inv (if tune then (0%nat, clear_input_counts (snd st)) else st) (if tune then [] else kept)) as Hinv0.
    { destruct tune; [|exact Hinv]. destruct Hinv as (Hi & _ & _). unfold clear_input_counts. rewrite Hi.
      split; [reflexivity|]. split; reflexivity. }
    destruct (push_samples_inv ssize raw _ _ Hinv0 Hs Hraw) as (st1 & -> & Hinv1). cbn [bind].
    apply IH; assumption.
Qed.

(** [C05_counts_length]: whatever was stored for the kind before
    [input_counter] was called, and however the rounds are split between tuning
    and collecting: the kind stays per-input, the number of stored counts is the
    number of stored samples, and each is its sample's own per-iteration value.
    Never a panic.  Guards: sample sizes are not 0, a sample's input counts sum
    below 2^128. *)
Theorem counts_length ci0 rounds :
  Forall round_wf rounds ->
  exists n ci, record_rounds (0%nat, set_input_counter ci0) rounds = Ok (n, ci) /\
    ci_input ci = true /\
    length (ci_counts ci) = n /\ n = length (kept_samples [] rounds) /\
    ci_counts ci = map stored_value (kept_samples [] rounds).
Proof.
  intros Hwf.
  destruct (record_rounds_inv rounds (0%nat, set_input_counter ci0) []) as ([n ci] & H & (Hi & Hn & Hc)).
  { split; [reflexivity|]. split; reflexivity. }
  { exact Hwf. }
  exists n, ci. cbn [fst snd] in *. split; [exact H|]. split; [exact Hi|].
  split; [rewrite Hc, map_length; symmetry; exact Hn|]. split; [exact Hn|exact Hc].
Qed.

Lemma stored_values_ok ssize l :
  Forall (fun p => fst p = ssize) l ->
  forallb2 (fun sum v => v =? (sum / ssize) mod 2 ^ 64)
           (map (fun p : N * list N => sum_list (snd p)) l) (map stored_value l) = true.
Proof.
  induction 1 as [|p l Hp _ IH]; [reflexivity|]. cbn [map forallb2]. rewrite IH, andb_true_r.
  unfold stored_value. rewrite Hp. apply N.eqb_refl.
Qed.

(** The specification evaluated on the real runs' dumps holds of the storage model. *)
Lemma stored_model_sb ci0 rounds ssize n ci :
  Forall round_wf rounds ->
  Forall (fun p => fst p = ssize) (kept_samples [] rounds) ->
  record_rounds (0%nat, set_input_counter ci0) rounds = Ok (n, ci) ->
  stored_counts_sb ssize (map (fun p => sum_list (snd p)) (kept_samples [] rounds)) ci = true.
Proof.
  intros Hwf Hsz H. destruct (counts_length ci0 rounds Hwf) as (n' & ci' & H' & Hi & _ & _ & Hc).
  rewrite H in H'. injection H' as <- <-. unfold stored_counts_sb. rewrite Hi, Hc. cbn [andb].
  apply stored_values_ok. exact Hsz.
Qed.

Example counts_length_satisfiable :
  Forall round_wf [(true, 1, [[5]]); (true, 2, [[5; 8]; [1; 1]]); (false, 2, [[9; 9]])] /\
  record_rounds (0%nat, set_input_counter {| ci_counts := [1000]; ci_input := false |})
                [(true, 1, [[5]]); (true, 2, [[5; 8]; [1; 1]]); (false, 2, [[9; 9]])]
  = Ok (3%nat, {| ci_counts := [6; 1; 9]; ci_input := true |}).
Proof.
  split; [|reflexivity].
  repeat constructor; cbn; try discriminate; reflexivity.
Qed.

Lemma push_samples_constant ssize raw : forall n ci,
  ci_input ci = false ->
  push_samples ssize (n, ci) raw = Ok ((n + length raw)%nat, ci).
Proof.
  induction raw as [|x r IH]; intros n ci Hi; cbn [push_samples length].
  - rewrite Nat.add_0_r. reflexivity.
  - unfold push_sample. cbn [fst snd]. rewrite Hi. cbn [bind]. rewrite IH by exact Hi. rewrite <- plus_n_Sm. reflexivity.
Qed.

Lemma record_rounds_constant rounds : forall n ci kept,
  ci_input ci = false -> n = length kept ->
  record_rounds (n, ci) rounds = Ok (length (kept_samples kept rounds), ci).
Proof.
  induction rounds as [|[[tune ssize] raw] rest IH]; intros n ci kept Hi Hn; cbn [record_rounds kept_samples].
  - subst. reflexivity.
  - unfold record_round. cbn [snd].
    replace (clear_input_counts ci) with ci by (unfold clear_input_counts; rewrite Hi; reflexivity).
    destruct tune.
    + rewrite push_samples_constant by exact Hi. cbn [bind]. apply IH; [exact Hi|].
      cbn [app]. rewrite map_length. reflexivity.
    + rewrite push_samples_constant by exact Hi. cbn [bind]. apply IH; [exact Hi|].
      rewrite app_length, map_length. subst. reflexivity.
Qed.

(** Current code: a constant set with [Bencher::counter] after [input_counter]
    of the same kind replaces it: whatever the rounds, no panic, one stored
    count, the kind is not per-input, and every sample reports that constant. *)
Theorem counter_overrides_input_counter ci0 c rounds :
  let ci := {| ci_counts := [c]; ci_input := false |} in
  set_counter c (set_input_counter ci0) = ci /\
  record_rounds (0%nat, set_counter c (set_input_counter ci0)) rounds
    = Ok (length (kept_samples [] rounds), ci) /\
  constant_counter_sb c ci = true /\
  forall s, count_for ci s = Some c.
Proof.
  cbn zeta. split; [reflexivity|]. split; [|split].
  - apply (record_rounds_constant rounds 0%nat _ []); reflexivity.
  - unfold constant_counter_sb. cbn. apply N.eqb_refl.
  - intros s. reflexivity.
Qed.

(** Before commit 5377f60 [set_counter] left the kind per-input with the
    constant as a stale first entry; without a tuning round (explicit sample
    size) every sample then read its predecessor's count (4 counts for 3
    samples). *)
Example old_counter_after_input_counter_is_stale :
  record_rounds (0%nat, set_counter_old 3023 (set_input_counter {| ci_counts := []; ci_input := false |}))
                [(false, 2, [[252; 726]; [432; 141]; [615; 321]])]
  = Ok (3%nat, {| ci_counts := [3023; 489; 286; 468]; ci_input := true |}).
Proof. reflexivity. Qed.

(** The same run on the current code. *)
Example counter_after_input_counter_now :
  record_rounds (0%nat, set_counter 3023 (set_input_counter {| ci_counts := []; ci_input := false |}))
                [(false, 2, [[252; 726]; [432; 141]; [615; 321]])]
  = Ok (3%nat, {| ci_counts := [3023]; ci_input := false |}).
Proof. reflexivity. Qed.
