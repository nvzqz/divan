(** C20: the node lines of the layout are the nodes of the picture in
    depth-first order, each exactly once; and [paint_layout] with the lines of
    the output made explicit. *)
From DivanV Require Import Base.Res Model.Painter Model.DriverPaint Model.Parse Proofs.Painter Proofs.PaintDriver.

Lemma pic_ind2 (P : pic -> Prop) :
  (forall n c rows kids, Forall P kids -> P (Pic n c rows kids)) -> forall p, P p.
Proof.
  intros H. fix IH 1. intros [n c rows kids]. apply H.
  induction kids as [|k r IHr]; constructor; [apply IH | exact IHr].
Qed.

Definition spec_name (l : lspec) : list str :=
  match l with LTop n _ => [n] | LNode _ _ n _ => [n] | LRow _ _ _ => [] | LBlank => [] end.

Definition lay_names (ls : list lspec) : list str := flat_map spec_name ls.

Lemma lay_names_app : forall a b, lay_names (a ++ b) = lay_names a ++ lay_names b.
Proof. intros. apply flat_map_app. Qed.

Lemma lay_names_rows : forall fl l rows, lay_names (map (LRow fl l) rows) = [].
Proof. induction rows; [reflexivity | exact IHrows]. Qed.

Lemma lay_names_kids_of : forall kids fl,
  (forall k, In k kids -> forall fl last, lay_names (lay_node fl last k) = preorder k) ->
  lay_names (lay_kids fl kids) = flat_map preorder kids.
Proof.
  induction kids as [|k r IH]; intros fl H; [reflexivity|].
  cbn [lay_kids flat_map]. rewrite lay_names_app, (H k (or_introl eq_refl)), IH; [reflexivity|].
  intros k' Hk. apply H. right. exact Hk.
Qed.

Lemma lay_names_node : forall p fl last, lay_names (lay_node fl last p) = preorder p.
Proof.
  induction p as [n c rows kids IH] using pic_ind2. intros fl last.
  rewrite lay_node_eq. cbn [preorder].
  change (LNode fl last n c :: ?x) with ([LNode fl last n c] ++ x).
  rewrite !lay_names_app, lay_names_rows, lay_names_kids_of; [reflexivity|].
  rewrite Forall_forall in IH. exact IH.
Qed.

Lemma lay_names_layout : forall ps, lay_names (layout ps) = flat_map preorder ps.
Proof.
  induction ps as [|[n c rows kids] r IH]; [reflexivity|].
  cbn [layout flat_map lay_top preorder]. fold (layout r).
  change (LTop n c :: ?x) with ([LTop n c] ++ x).
  rewrite !lay_names_app, lay_names_kids_of, IH by (intros; apply lay_names_node).
  cbn. rewrite app_nil_r. reflexivity.
Qed.

Lemma glyphs_encode_position : forall a t,
  forallb is_group t = true -> Forall wf_node t ->
  exists p out ls, paint a t = Ok (p, out) /\ out = unlines ls /\
                   Forall2 line_ok (layout (picture a t)) ls.
Proof.
  intros a t Hg Hw. destruct (paint_layout a t Hg Hw) as (p & out & E & _ & _ & ls & Eo & F).
  exists p, out, ls. auto.
Qed.

Lemma preorder_once : forall a t,
  lay_names (layout (picture a t)) = flat_map preorder (picture a t).
Proof. intros. apply lay_names_layout. Qed.
