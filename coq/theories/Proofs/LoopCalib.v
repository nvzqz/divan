(** Model/Loop.v: the time origin of the sampling loop and
    the first-use calibration of the timer overheads. *)

From DivanV Require Import Base.Res Generated.Consts Model.Loop Proofs.LoopProps Proofs.LoopSb.
Local Open Scope N_scope.

(** With the origin read after the overhead lookup the run depends on the
    clock after the calibration only, not on how long the calibration took. *)
Lemma cal_after c t0 calib hist :
  origin_before_calib = false -> bench_loop_cal c t0 calib hist = bench_loop c (t0 + calib) hist.
Proof. intros H. unfold bench_loop_cal. rewrite H. reflexivity. Qed.

Theorem calib_independent c t0 calib t0' calib' hist :
  origin_before_calib = false -> t0 + calib = t0' + calib' ->
  bench_loop_cal c t0 calib hist = bench_loop_cal c t0' calib' hist.
Proof. intros H E. rewrite !cal_after by exact H. rewrite E. reflexivity. Qed.

(** ... and the rounds are the least k of the rule, the elapsed time measured
    from just before the first sample. *)
Theorem rounds_least_cal c t0 calib hist out :
  origin_before_calib = false ->
  c_test c = false -> has_samples c = true ->
  bench_loop_cal c t0 calib hist = Ok out ->
  let k := rounds_of (out_state out) in
  (k <= length hist)%nat /\
  (forall j, (j < k)%nat -> continue_after c (t0 + calib) hist j = true) /\
  (if out_done out then continue_after c (t0 + calib) hist k = false
   else k = length hist /\ continue_after c (t0 + calib) hist k = true).
Proof. intros H Ht Hh Hb. rewrite (cal_after c t0 calib hist H) in Hb. exact (rounds_least c (t0 + calib) hist out Ht Hh Hb). Qed.

Theorem cal_model_sb c t0 calib hist out t s :
  origin_before_calib = false ->
  bench_loop_cal c t0 calib hist = Ok out -> seen_of_outcome t out = Ok s ->
  c04_cal_sb c t0 calib (firstn (rounds_of (out_state out)) hist) s = true.
Proof. intros H Hb Hs. rewrite (cal_after c t0 calib hist H) in Hb. exact (c04_model_sb c (t0 + calib) hist out t s Hb Hs). Qed.

(** With the origin read BEFORE the lookup the property fails: one sample of
    one iteration, min_time = 500 ps, a calibration of 800 ps, rounds of 101 ps
    each: the loop returns after one round (it sees 902 ps elapsed), although
    only 102 ps have elapsed since just before the first sample and the rule asks
    for five rounds. *)
Definition cal_cfg : cfg :=
  {| c_test := false; c_count := Some 1; c_size := Some 1; c_min := 500; c_max := u128_max; c_skip := false;
     c_freq := 1000000000000; c_prec := 1; c_oh := {| oh_loop := 0; oh_alloc := 0; oh_dealloc := 0; oh_realloc := 0 |};
     c_input_counts := qconst false |}.
Definition cal_hist : list round_obs :=
  [[ex_raw 801 902]; [ex_raw 903 1004]; [ex_raw 1005 1106]; [ex_raw 1107 1208]; [ex_raw 1209 1310]; [ex_raw 1311 1412]].

Theorem origin_before_refuted :
  exists out, bench_loop cal_cfg (origin_reading true 0 800) cal_hist = Ok out /\ out_done out = true /\
    rounds_of (out_state out) = 1%nat /\
    (forall j, (j < 5)%nat -> continue_after cal_cfg (0 + 800) cal_hist j = true) /\
    continue_after cal_cfg (0 + 800) cal_hist 5 = false.
Proof.
  eexists. split; [vm_compute; reflexivity|]. split; [reflexivity|]. split; [reflexivity|]. split.
  - intros j Hj. do 5 (destruct j as [|j]; [vm_compute; reflexivity|]).
    do 5 apply Nat.succ_lt_mono in Hj. inversion Hj.
  - vm_compute. reflexivity.
Qed.

(** The same history with the origin read after the lookup: five rounds. *)
Example origin_after_example :
  exists out, bench_loop cal_cfg (origin_reading false 0 800) cal_hist = Ok out /\ out_done out = true /\
    rounds_of (out_state out) = 5%nat.
Proof. eexists. split; [vm_compute; reflexivity|]. split; reflexivity. Qed.
