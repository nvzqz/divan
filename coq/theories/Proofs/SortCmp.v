(** Comparisons that are total preorders (on a domain), their closure under
    pull-back, cascade, reversal, pairs, sums and lexicographic lists; the
    insertion sort returns a sorted permutation and is stable. *)

From Coq Require Import Permutation.
From DivanV Require Import Base.Res Model.Natural Model.SortBy.
Local Open Scope N_scope.

Section TPO.
Context {A : Type}.

(** [c] restricted to [P] is antisymmetric in the [CompOpp] sense, [Lt] is
    transitive and [Eq] is a congruence.  Everything else follows. *)
Definition tpo_on (P : A -> Prop) (c : A -> A -> comparison) : Prop :=
  (forall x y, P x -> P y -> c y x = CompOpp (c x y)) /\
  (forall x y z, P x -> P y -> P z -> c x y = Lt -> c y z = Lt -> c x z = Lt) /\
  (forall x y z, P x -> P y -> P z -> c x y = Eq -> c x z = c y z).

Variable P : A -> Prop.
Variable c : A -> A -> comparison.
Hypothesis T : tpo_on P c.

Lemma tpo_anti : forall x y, P x -> P y -> c y x = CompOpp (c x y).
Proof. apply T. Qed.

Lemma tpo_lt_trans : forall x y z, P x -> P y -> P z -> c x y = Lt -> c y z = Lt -> c x z = Lt.
Proof. apply T. Qed.

Lemma tpo_eq_l : forall x y z, P x -> P y -> P z -> c x y = Eq -> c x z = c y z.
Proof. apply T. Qed.

Lemma tpo_refl : forall x, P x -> c x x = Eq.
Proof.
  intros x Px. pose proof (tpo_anti x x Px Px) as H.
  destruct (c x x); simpl in H; congruence.
Qed.

Lemma tpo_eq_sym : forall x y, P x -> P y -> c x y = Eq -> c y x = Eq.
Proof. intros x y Px Py H. rewrite (tpo_anti x y Px Py), H. reflexivity. Qed.

Lemma tpo_eq_r : forall x y z, P x -> P y -> P z -> c x y = Eq -> c z x = c z y.
Proof.
  intros x y z Px Py Pz H.
  rewrite (tpo_anti x z Px Pz), (tpo_anti y z Py Pz), (tpo_eq_l x y z Px Py Pz H). reflexivity.
Qed.

Lemma tpo_gt_lt : forall x y, P x -> P y -> c x y = Gt -> c y x = Lt.
Proof. intros x y Px Py H. rewrite (tpo_anti x y Px Py), H. reflexivity. Qed.

Lemma tpo_eq_trans : forall x y z, P x -> P y -> P z -> c x y = Eq -> c y z = Eq -> c x z = Eq.
Proof. intros x y z Px Py Pz H1 H2. rewrite (tpo_eq_l x y z Px Py Pz H1). exact H2. Qed.

Lemma tpo_le_trans : forall x y z, P x -> P y -> P z -> c x y <> Gt -> c y z <> Gt -> c x z <> Gt.
Proof.
  intros x y z Px Py Pz H1 H2.
  destruct (c x y) eqn:E1; try congruence.
  - rewrite (tpo_eq_l x y z Px Py Pz E1). exact H2.
  - destruct (c y z) eqn:E2; try congruence.
    + rewrite <- (tpo_eq_r y z x Py Pz Px E2), E1. discriminate.
    + rewrite (tpo_lt_trans x y z Px Py Pz E1 E2). discriminate.
Qed.

Lemma tpo_le_antisym : forall x y, P x -> P y -> c x y <> Gt -> c y x <> Gt -> c x y = Eq.
Proof.
  intros x y Px Py H1 H2. rewrite (tpo_anti x y Px Py) in H2.
  destruct (c x y); simpl in H2; congruence.
Qed.

End TPO.

(** [c] on [P] is [c'] seen through a key [f]: what a total preorder asks of
    [c] on [P] is asked of [c'] at the keys. *)
Lemma tpo_via {A B} (P : A -> Prop) (Q : B -> Prop) (f : A -> B) c c' :
  (forall x, P x -> Q (f x)) -> (forall x y, P x -> P y -> c x y = c' (f x) (f y)) ->
  tpo_on Q c' -> tpo_on P c.
Proof.
  intros PQ E (H1 & H2 & H3). split; [|split].
  - intros x y Px Py. rewrite !E by assumption. apply H1; auto.
  - intros x y z Px Py Pz. rewrite !E by assumption. apply H2; auto.
  - intros x y z Px Py Pz. rewrite !E by assumption. apply H3; auto.
Qed.

Lemma tpo_weaken {A} (P Q : A -> Prop) c :
  (forall x, P x -> Q x) -> tpo_on Q c -> tpo_on P c.
Proof. intros PQ. exact (tpo_via P Q (fun x => x) c c PQ (fun _ _ _ _ => eq_refl)). Qed.

Lemma tpo_ext {A} (P : A -> Prop) c c' :
  (forall x y, P x -> P y -> c x y = c' x y) -> tpo_on P c' -> tpo_on P c.
Proof. exact (tpo_via P P (fun x => x) c c' (fun _ Px => Px)). Qed.

Lemma tpo_pull {A B} (P : A -> Prop) (Q : B -> Prop) (f : A -> B) c :
  (forall x, P x -> Q (f x)) -> tpo_on Q c -> tpo_on P (fun x y => c (f x) (f y)).
Proof. intros PQ. exact (tpo_via P Q f _ c PQ (fun _ _ _ _ => eq_refl)). Qed.

Definition all {A} : A -> Prop := fun _ => True.

Lemma tpo_key {A B} (P : A -> Prop) (f : A -> B) c :
  tpo_on all c -> tpo_on P (fun x y => c (f x) (f y)).
Proof. apply tpo_pull. intros; exact I. Qed.

Lemma tpo_N : tpo_on all N.compare.
Proof.
  split; [|split].
  - intros x y _ _. apply N.compare_antisym.
  - intros x y z _ _ _ H1 H2. apply N.compare_lt_iff.
    apply N.lt_trans with y; apply N.compare_lt_iff; assumption.
  - intros x y z _ _ _ H. apply N.compare_eq in H. subst y. reflexivity.
Qed.

Lemma tpo_Z : tpo_on all Z.compare.
Proof.
  split; [|split].
  - intros x y _ _. apply Z.compare_antisym.
  - intros x y z _ _ _ H1 H2. apply Z.compare_lt_iff.
    apply Z.lt_trans with y; apply Z.compare_lt_iff; assumption.
  - intros x y z _ _ _ H. apply Z.compare_eq in H. subst y. reflexivity.
Qed.

(** The constantly-[Eq] comparison ([SortingAttr::Kind] on argument names). *)
Lemma tpo_const_eq {A} (P : A -> Prop) : tpo_on P (fun _ _ => Eq).
Proof. split; [|split]; intros; (reflexivity || discriminate). Qed.

Lemma tpo_thenc {A} (P : A -> Prop) c1 c2 :
  tpo_on P c1 -> tpo_on P c2 -> tpo_on P (thenc c1 c2).
Proof.
  intros T1 T2. unfold thenc. split; [|split].
  - intros x y Px Py. rewrite (tpo_anti P c1 T1 x y Px Py).
    destruct (c1 x y); simpl; try reflexivity. apply (tpo_anti P c2 T2); assumption.
  - intros x y z Px Py Pz H1 H2.
    destruct (c1 x y) eqn:E1; try discriminate.
    + rewrite (tpo_eq_l P c1 T1 x y z Px Py Pz E1).
      destruct (c1 y z) eqn:E2; try discriminate; try reflexivity.
      apply (tpo_lt_trans P c2 T2 x y z); assumption.
    + destruct (c1 y z) eqn:E2; try discriminate.
      * rewrite <- (tpo_eq_r P c1 T1 y z x Py Pz Px E2), E1. reflexivity.
      * rewrite (tpo_lt_trans P c1 T1 x y z Px Py Pz E1 E2). reflexivity.
  - intros x y z Px Py Pz H.
    destruct (c1 x y) eqn:E1; try discriminate.
    rewrite (tpo_eq_l P c1 T1 x y z Px Py Pz E1).
    destruct (c1 y z); try reflexivity.
    apply (tpo_eq_l P c2 T2); assumption.
Qed.

(** Pairs, first component first: the shape of a derived [Ord] on a struct. *)
Definition paircmp {A B} (c1 : A -> A -> comparison) (c2 : B -> B -> comparison)
  (x y : A * B) : comparison :=
  match c1 (fst x) (fst y) with Eq => c2 (snd x) (snd y) | o => o end.

Lemma tpo_pair {A B} (c1 : A -> A -> comparison) (c2 : B -> B -> comparison) :
  tpo_on all c1 -> tpo_on all c2 -> tpo_on all (paircmp c1 c2).
Proof.
  intros T1 T2. exact (tpo_thenc all _ _ (tpo_key all fst c1 T1) (tpo_key all snd c2 T2)).
Qed.

Lemma CompOpp_inj : forall a b, CompOpp a = CompOpp b -> a = b.
Proof. intros [] []; simpl; congruence. Qed.

Lemma revc_eq {A} b (c : A -> A -> comparison) x y : revc b c x y = Eq -> c x y = Eq.
Proof. destruct b; [apply (CompOpp_inj _ Eq)|exact (fun H => H)]. Qed.

(** Reversal: on [P] the reversed comparison is [c] with its arguments swapped. *)
Lemma tpo_rev {A} (P : A -> Prop) c b : tpo_on P c -> tpo_on P (revc b c).
Proof.
  intros T. destruct b; [|exact T].
  apply (tpo_ext P _ (fun x y => c y x)).
  - intros x y Px Py. symmetry. apply (tpo_anti P c T); assumption.
  - split; [|split].
    + intros x y Px Py. apply (tpo_anti P c T); assumption.
    + intros x y z Px Py Pz H1 H2. apply (tpo_lt_trans P c T z y x); assumption.
    + intros x y z Px Py Pz H. symmetry. apply (tpo_eq_r P c T y x z); assumption.
Qed.

Definition sumcmp {L R} (cl : L -> L -> comparison) (cr : R -> R -> comparison)
  (x y : L + R) : comparison :=
  match x, y with
  | inl a, inl b => cl a b
  | inl _, inr _ => Lt
  | inr _, inl _ => Gt
  | inr a, inr b => cr a b
  end.

Lemma tpo_sum {L R} (cl : L -> L -> comparison) (cr : R -> R -> comparison) :
  tpo_on all cl -> tpo_on all cr -> tpo_on all (sumcmp cl cr).
Proof.
  intros TL TR. split; [|split].
  - intros [a|a] [b|b] _ _; simpl; try reflexivity.
    + apply (tpo_anti all cl TL); exact I.
    + apply (tpo_anti all cr TR); exact I.
  - intros [a|a] [b|b] [d|d] _ _ _; simpl; try discriminate; try reflexivity.
    + apply (tpo_lt_trans all cl TL); exact I.
    + apply (tpo_lt_trans all cr TR); exact I.
  - intros [a|a] [b|b] [d|d] _ _ _; simpl; try discriminate; try reflexivity.
    + apply (tpo_eq_l all cl TL); exact I.
    + apply (tpo_eq_l all cr TR); exact I.
Qed.

Lemma tpo_lex {A} (c : A -> A -> comparison) : tpo_on all c -> tpo_on all (lex c).
Proof.
  intros T. split; [|split].
  - induction x as [|a x IH]; intros [|b y] _ _; simpl; try reflexivity.
    rewrite (tpo_anti all c T a b I I).
    destruct (c a b); simpl; try reflexivity. apply IH; exact I.
  - induction x as [|a x IH]; intros [|b y] [|d z] _ _ _; simpl; try discriminate; try reflexivity.
    destruct (c a b) eqn:E1; try discriminate.
    + rewrite (tpo_eq_l all c T a b d I I I E1).
      destruct (c b d); try discriminate; try reflexivity. apply IH; exact I.
    + destruct (c b d) eqn:E2; try discriminate.
      * rewrite <- (tpo_eq_r all c T b d a I I I E2), E1. reflexivity.
      * rewrite (tpo_lt_trans all c T a b d I I I E1 E2). reflexivity.
  - induction x as [|a x IH]; intros [|b y] [|d z] _ _ _; simpl; try discriminate; try reflexivity.
    destruct (c a b) eqn:E1; try discriminate.
    rewrite (tpo_eq_l all c T a b d I I I E1).
    destruct (c b d); try reflexivity. apply IH; exact I.
Qed.

Lemma lex_ext {A} (c c' : A -> A -> comparison) (P : A -> Prop) :
  (forall x y, P x -> P y -> c x y = c' x y) ->
  forall a b, Forall P a -> Forall P b -> lex c a b = lex c' a b.
Proof.
  intros E. induction a as [|x a IH]; intros [|y b] Pa Pb; simpl; try reflexivity.
  inversion Pa; inversion Pb; subst. rewrite E by assumption.
  destruct (c' x y); try reflexivity. apply IH; assumption.
Qed.

Lemma lex_map {A B} (c : B -> B -> comparison) (f : A -> B) :
  forall a b, lex c (map f a) (map f b) = lex (fun x y => c (f x) (f y)) a b.
Proof.
  induction a as [|x a IH]; intros [|y b]; simpl; try reflexivity.
  destruct (c (f x) (f y)); try reflexivity. apply IH.
Qed.

Lemma lex_common_prefix {A} (c : A -> A -> comparison) (P : A -> Prop) :
  (forall x, P x -> c x x = Eq) ->
  forall l a b, Forall P l -> lex c (l ++ a) (l ++ b) = lex c a b.
Proof.
  intros R. induction l as [|x l IH]; intros a b Pl; simpl; [reflexivity|].
  inversion Pl; subst. rewrite R by assumption. apply IH. assumption.
Qed.

Lemma lex_eq_iff {A} (c : A -> A -> comparison) :
  (forall x y, c x y = Eq -> x = y) -> (forall x, c x x = Eq) ->
  forall a b, lex c a b = Eq <-> a = b.
Proof.
  intros H R. induction a as [|x a IH]; intros [|y b]; simpl; split; try discriminate; try reflexivity.
  - destruct (c x y) eqn:E; try discriminate. apply H in E. subst y. intros L. f_equal. apply IH. exact L.
  - intros [= -> ->]. rewrite R. apply IH. reflexivity.
Qed.

Section Sorting.
Context {A : Type}.
Variable P : A -> Prop.
Variable c : A -> A -> comparison.
Hypothesis T : tpo_on P c.

Fixpoint ssorted (l : list A) : Prop :=
  match l with
  | [] => True
  | x :: r => Forall (fun y => c x y <> Gt) r /\ ssorted r
  end.

Lemma leb_c_true : forall x y, leb_c c x y = true <-> c x y <> Gt.
Proof. intros x y. unfold leb_c. destruct (c x y); split; congruence. Qed.

Lemma insert_perm : forall x l, Permutation (x :: l) (insert c x l).
Proof.
  induction l as [|y r IH]; simpl; [apply Permutation_refl|].
  destruct (leb_c c x y); [apply Permutation_refl|].
  eapply perm_trans; [apply perm_swap|]. apply perm_skip. exact IH.
Qed.

Lemma isort_perm : forall l, Permutation l (isort c l).
Proof.
  induction l as [|x r IH]; simpl; [constructor|].
  eapply perm_trans; [apply perm_skip; exact IH|]. apply insert_perm.
Qed.

Lemma sort_by_perm : forall l l', sort_by c l = Ok l' -> Permutation l l'.
Proof.
  intros l l'. unfold sort_by. destruct (all_pairs_ok c (isort c l)); [|discriminate].
  intros [= <-]. apply isort_perm.
Qed.

Lemma isort_Forall : forall (Q : A -> Prop) l, Forall Q l -> Forall Q (isort c l).
Proof. intros Q l. exact (Permutation_Forall (isort_perm l)). Qed.

Lemma insert_sorted : forall x l, P x -> Forall P l -> ssorted l -> ssorted (insert c x l).
Proof.
  induction l as [|y r IH]; intros Px Pl S; simpl.
  - split; [constructor|exact I].
  - inversion Pl as [|? ? Py Pr]; subst. destruct S as [Sy Sr].
    destruct (leb_c c x y) eqn:E.
    + apply leb_c_true in E. split; [|split; assumption].
      constructor; [exact E|].
      apply Forall_forall. intros z Hz.
      apply (tpo_le_trans P c T x y z Px Py (proj1 (Forall_forall _ _) Pr z Hz) E).
      exact (proj1 (Forall_forall _ _) Sy z Hz).
    + assert (G : c x y = Gt) by (unfold leb_c in E; destruct (c x y); congruence).
      split; [|apply IH; assumption].
      apply (Permutation_Forall (insert_perm x r)).
      constructor; [|exact Sy].
      rewrite (tpo_gt_lt P c T x y Px Py G). discriminate.
Qed.

Lemma isort_sorted : forall l, Forall P l -> ssorted (isort c l).
Proof.
  induction l as [|x r IH]; intros Pl; simpl; [exact I|].
  inversion Pl; subst. apply insert_sorted; auto. apply isort_Forall. assumption.
Qed.

Lemma all_pairs_ok_sorted : forall l, Forall P l -> ssorted l -> all_pairs_ok c l = true.
Proof.
  induction l as [|x r IH]; intros Pl S; simpl; [reflexivity|].
  inversion Pl as [|? ? Px Pr]; subst. destruct S as [Sx Sr].
  rewrite IH by assumption. rewrite Bool.andb_true_r.
  apply forallb_forall. intros y Hy.
  pose proof (proj1 (Forall_forall _ _) Sx y Hy) as Sy. cbv beta in Sy.
  rewrite (tpo_anti P c T x y Px (proj1 (Forall_forall _ _) Pr y Hy)).
  unfold leb_c. destruct (c x y); simpl; congruence.
Qed.

(** On a total preorder [sort_by] never takes the panic branch: it returns a
    sorted permutation. *)
Lemma sort_by_ok : forall l, Forall P l ->
  sort_by c l = Ok (isort c l) /\ Permutation l (isort c l) /\ ssorted (isort c l).
Proof.
  intros l Pl. pose proof (isort_sorted l Pl) as S.
  split; [|split; [apply isort_perm|exact S]].
  unfold sort_by. rewrite all_pairs_ok_sorted; [reflexivity|apply isort_Forall; exact Pl|exact S].
Qed.

Lemma ssorted_app : forall l1 l2,
  ssorted l1 -> ssorted l2 -> (forall x y, In x l1 -> In y l2 -> c x y <> Gt) -> ssorted (l1 ++ l2).
Proof.
  induction l1 as [|x r IH]; intros l2 S1 S2 H; simpl; [exact S2|].
  destruct S1 as [Sx Sr]. split.
  - apply Forall_app. split; [exact Sx|]. apply Forall_forall. intros y Hy. apply H; [left; reflexivity|exact Hy].
  - apply IH; auto. intros a b Ha Hb. apply H; [right; exact Ha|exact Hb].
Qed.

End Sorting.

Lemma ssorted_rev {A} (P : A -> Prop) (c : A -> A -> comparison) :
  tpo_on P c -> forall l, Forall P l -> ssorted c l -> ssorted (revc true c) (rev l).
Proof.
  intros T. induction l as [|x r IH]; intros Pl S; simpl; [exact I|].
  inversion Pl as [|? ? Px Pr]; subst. destruct S as [Sx Sr].
  apply ssorted_app.
  - apply IH; assumption.
  - simpl. split; [constructor|exact I].
  - intros a b Ha [<-|[]]. apply in_rev in Ha.
    pose proof (proj1 (Forall_forall _ _) Sx a Ha) as Sa. cbv beta in Sa.
    unfold revc, apply_reverse. rewrite (tpo_anti P c T x a Px (proj1 (Forall_forall _ _) Pr a Ha)).
    destruct (c x a); simpl; congruence.
Qed.

(** Stability of the insertion sort, stated by filtering: for every [z] the
    elements that compare [Eq] to [z] come in the same order before and after. *)
Section Stable.
Context {A : Type}.
Variable P : A -> Prop.
Variable c : A -> A -> comparison.
Hypothesis T : tpo_on P c.

Definition eqv_b (z x : A) : bool := match c z x with Eq => true | _ => false end.

Lemma insert_filter_in : forall z x l, P z -> P x -> Forall P l ->
  eqv_b z x = true -> filter (eqv_b z) (insert c x l) = x :: filter (eqv_b z) l.
Proof.
  induction l as [|y r IH]; intros Pz Px Pl E; simpl.
  - rewrite E. reflexivity.
  - inversion Pl as [|? ? Py Pr]; subst.
    destruct (leb_c c x y) eqn:L; simpl.
    + rewrite E. reflexivity.
    + assert (Ny : eqv_b z y = false).
      { unfold eqv_b, leb_c in *. destruct (c z x) eqn:Ezx; try discriminate.
        rewrite (tpo_eq_l P c T z x y Pz Px Py Ezx). destruct (c x y); congruence. }
      rewrite Ny. apply IH; assumption.
Qed.

Lemma insert_filter_out : forall z x l,
  eqv_b z x = false -> filter (eqv_b z) (insert c x l) = filter (eqv_b z) l.
Proof.
  induction l as [|y r IH]; intros E; simpl.
  - rewrite E. reflexivity.
  - destruct (leb_c c x y); simpl.
    + rewrite E. reflexivity.
    + destruct (eqv_b z y); [f_equal|]; apply IH; assumption.
Qed.

Lemma isort_stable : forall z l, P z -> Forall P l ->
  filter (eqv_b z) (isort c l) = filter (eqv_b z) l.
Proof.
  induction l as [|x r IH]; intros Pz Pl; simpl; [reflexivity|].
  inversion Pl as [|? ? Px Pr]; subst.
  destruct (eqv_b z x) eqn:E.
  - rewrite insert_filter_in; auto.
    + f_equal. apply IH; assumption.
    + apply isort_Forall. assumption.
  - rewrite insert_filter_out by assumption. apply IH; assumption.
Qed.

End Stable.
