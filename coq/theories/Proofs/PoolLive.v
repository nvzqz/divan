(** Consequences of the control-state invariant: for C07 no lost wake-up,
    deadlock freedom (also for the explorer's enumeration [enabled_labels]),
    the termination measure, no infinite execution with finitely many spurious
    wake-ups, workers exit; for C06 spawn/reuse, no access to a dead task
    block, no worker before its decrement while the caller is outside the wait
    loop. *)

From DivanV Require Import Model.Pool Proofs.Pool Proofs.ListFacts.
From Coq Require Import Arith Lia List.
Import ListNotations.
Import PoolM.

Arguments list_sum : simpl never.

Lemma wake_up c s n :
  Inv s -> cst s = CPark n -> rc s = 0 -> token s = false ->
  exists k, getw s k = Some (WUnpark (cur s)) /\ step c s (EWUnpark k) = Some (st_wunpark s k).
Proof.
  intros I Hc Hr Ht. pose proof (I_wake s I) as W. unfold wake_ok in W. rewrite Hc in W.
  destruct (Exists_nth_error _ _ (W Hr Ht)) as (j & x & E & ->).
  exists (S j). split; [exact E|]. apply step_intro. now apply S_wunpark with (b := cur s).
Qed.

Theorem no_lost_wakeup c scr s n :
  good c -> reachable c scr s ->
  cst s = CPark n -> rc s = 0 -> token s = false ->
  exists k, getw s k = Some (WUnpark (cur s)) /\ step c s (EWUnpark k) = Some (st_wunpark s k).
Proof. intros G R. apply wake_up. exact (inv_reachable _ _ _ G R). Qed.

Definition can_move (c : cfg) (s : state) : Prop :=
  exists l s', l <> ESpurious /\ step c s l = Some s'.

Lemma can_move_intro c s l s' : l <> ESpurious -> step_of c s l s' -> can_move c s.
Proof. intros N H. exists l, s'. split; [exact N|]. now apply step_intro. Qed.

(** [moves l]: the step labelled [l], not a spurious wake-up, is enabled by the
    facts in the context. *)
Local Ltac moves l := eapply (can_move_intro _ _ l); [discriminate|econstructor; eassumption].

Lemma worker_moves c s j w :
  nth_error (ws s) j = Some w -> w <> WIdle -> w <> WExit -> can_move c s.
Proof.
  intros Hj N1 N2. destruct w; try contradiction.
  - moves (EWRun (S j) false).
  - moves (EWClone (S j)).
  - moves (EWDec (S j)).
  - moves (EWUnpark (S j)).
Qed.

(** The caller is blocked only in [park] without a token; then either the counter
    is zero and a worker is about to unpark, or some worker is still before its
    decrement, and a worker in either state can move. *)
Lemma can_move_inv c s : Inv s -> final s = false -> can_move c s.
Proof.
  intros I F. destruct (cst s) eqn:Hc.
  - destruct (script s) as [|n rest] eqn:Es.
    + moves EDrop.
    + moves (EBegin n).
  - destruct (rc_at s _ I Hc) as (_ & K1 & K2 & K3).
    destruct k as [|j]; [lia|].
    destruct (nth_error (ws s) j) as [w|] eqn:E; [|apply nth_error_None in E; lia].
    assert (N : cst s <> CDone) by (rewrite Hc; discriminate).
    pose proof (Forall_nth_error _ _ _ _ (I_exit s I N) E) as NE.
    destruct w; try (apply (worker_moves c s j _ E); discriminate); [|contradiction].
    moves (ESend (S j)).
  - moves (ERun0 false).
  - moves ELoad.
  - destruct (token s) eqn:Et.
    + moves EPark.
    + destruct (Nat.eq_dec (rc s) 0) as [Z|NZ].
      * destruct (wake_up c s n I Hc Z Et) as (k & _ & St). exists (EWUnpark k). eexists. split; [discriminate|exact St].
      * destruct (rc_at s _ I Hc) as (Rc & _). unfold count_pre in Rc.
        destruct (count_pos_exists (pre_dec (cur s)) (ws s)) as (j & w & E & Pw); [lia|].
        apply (worker_moves c s j w E); intros ->; discriminate.
  - unfold final in F. rewrite Hc in F.
    destruct (forallb_false_exists _ _ F) as (j & w & E & Nw).
    destruct w; try discriminate; try (apply (worker_moves c s j _ E); discriminate).
    moves (EWExit (S j)).
Qed.

Theorem deadlock_free c scr s :
  good c -> reachable c scr s -> final s = false -> can_move c s.
Proof. intros G R. apply can_move_inv. exact (inv_reachable _ _ _ G R). Qed.

Lemma in_cand s l :
  match l with
  | EBegin n => exists rest, script s = n :: rest
  | EDrop => script s = []
  | ERun0 p => p = false
  | ELoad | EPark => True
  | ESpurious => False
  | ESend k | EWClone k | EWDec k | EWUnpark k | EWExit k => 1 <= k <= length (ws s)
  | EWRun k p => 1 <= k <= length (ws s) /\ p = false
  end -> In l (candidate_labels s).
Proof.
  unfold candidate_labels.
  assert (K : forall k, 1 <= k <= length (ws s) -> In k (seq 1 (length (ws s)))) by (intros k H; apply in_seq; lia).
  rewrite !in_app_iff.
  destruct l; intro H.
  - destruct H as (rest & ->). left. now left.
  - right. left. apply in_map. auto.
  - subst. do 2 right. left. now left.
  - do 2 right. left. right. now left.
  - do 2 right. left. do 2 right. now left.
  - contradiction.
  - destruct H as [H ->]. do 3 right. left. apply (in_map (fun k => EWRun k false)). auto.
  - do 4 right. left. apply in_map. auto.
  - do 5 right. left. apply in_map. auto.
  - do 6 right. left. apply in_map. auto.
  - rewrite H. left. now left.
  - do 7 right. apply in_map. auto.
Qed.

Definition unflag (l : label) : label :=
  match l with ERun0 _ => ERun0 false | EWRun k _ => EWRun k false | _ => l end.

Lemma enabled_unflag c s l : enabled c s (unflag l) = enabled c s l.
Proof.
  destruct l; try reflexivity; unfold enabled, step; cbn.
  - now destruct (cst s).
  - now destruct (getw s k) as [[]|].
Qed.

Theorem deadlock_free_enabled c scr s :
  good c -> reachable c scr s -> final s = false -> enabled_labels c s <> [].
Proof.
  intros G R F. destruct (deadlock_free c scr s G R F) as (l & s1 & NS & St).
  assert (X : In (unflag l) (enabled_labels c s)).
  { apply filter_In. split.
    - apply in_cand.
      destruct (step_inv _ _ _ _ St) as [n rest Hc Es|j n Hc Hj|n p Hc|n Hc|n Hc Ht|n Hc|j b p Hj|j b Hj|j b Hj|j b Hj|Hc Es|j Hc Hj];
        cbn; try apply nth_error_lt in Hj; try solve [eauto | lia | split; [lia|reflexivity] | now elim NS].
    - rewrite enabled_unflag. unfold enabled. now rewrite St. }
  intro E. rewrite E in X. contradiction.
Qed.

(** The final state has no successor at all, so "non-final" is exactly
    "something can still happen". *)
Lemma final_no_step c s l : final s = true -> step c s l = None.
Proof.
  intros F. destruct (final_inv s F) as [Hc X].
  destruct (step c s l) eqn:St; auto. exfalso.
  destruct (step_inv _ _ _ _ St) as [n rest Hc' Es|j n Hc' Hj|n p Hc'|n Hc'|n Hc' Ht|n Hc'|j b p Hj|j b Hj|j b Hj|j b Hj|Hc' Es|j Hc' Hj];
    try congruence; apply (Forall_nth_error _ _ _ _ X) in Hj; discriminate.
Qed.

Lemma final_stuck c s l : Inv s -> final s = true -> step c s l = None.
Proof. intros _. apply final_no_step. Qed.

Definition lex_lt (s' s : state) : Prop :=
  outer_measure s' < outer_measure s
  \/ (outer_measure s' = outer_measure s /\ inner_measure s' < inner_measure s).

Lemma outer_same s s' :
  script s' = script s -> (cst s' = CDone <-> cst s = CDone) -> outer_measure s' = outer_measure s.
Proof.
  intros Hs Hd. unfold outer_measure. rewrite Hs.
  destruct (cst s') eqn:E1; destruct (cst s) eqn:E2; auto;
    try (destruct Hd as [Hd _]; specialize (Hd eq_refl); discriminate);
    try (destruct Hd as [_ Hd]; specialize (Hd eq_refl); discriminate).
Qed.

Lemma worker_decreases s s' j w w' :
  nth_error (ws s) j = Some w -> ws s' = set_nth j w' (ws s) -> cst s' = cst s -> script s' = script s ->
  wrank w' + (if token s' then 2 else 0) < wrank w + (if token s then 2 else 0) ->
  lex_lt s' s.
Proof.
  intros Hj Hw Hc Hs Hr. right. split.
  - apply outer_same; [exact Hs|now rewrite Hc].
  - unfold inner_measure. rewrite Hw, Hc. pose proof (sum_set_nth wrank j w' w (ws s) Hj). lia.
Qed.

Theorem measure_decreases c s l s' :
  Inv s -> step c s l = Some s' -> l <> ESpurious -> lex_lt s' s.
Proof.
  intros I H NS.
  destruct (step_inv _ _ _ _ H) as [n rest Hc Es|j n Hc Hj|n p Hc|n Hc|n Hc Ht|n Hc|j b p Hj|j b Hj|j b Hj|j b Hj|Hc Es|j Hc Hj];
    try contradiction.
  - left. unfold outer_measure; cbn. rewrite Es, Hc. destruct (Nat.eqb n 0); cbn; lia.
  - destruct (rc_at s _ I Hc) as (_ & _ & Le & _).
    pose proof (sum_set_nth wrank j (WRun (cur s)) WIdle (ws s) Hj) as Sm. cbn in Sm.
    right. split.
    + apply outer_same; cbn; auto. rewrite Hc. destruct (Nat.eqb (S j) n); split; discriminate.
    + unfold inner_measure; cbn. rewrite Hc. destruct (Nat.eqb_spec (S j) n); cbn; lia.
  - right. split.
    + apply outer_same; cbn; auto. rewrite Hc. split; discriminate.
    + unfold inner_measure; cbn. rewrite Hc. cbn. lia.
  - right. destruct (leave c s); (split; [apply outer_same; cbn; auto; rewrite Hc; split; discriminate|]);
      unfold inner_measure; cbn; rewrite Hc; cbn; lia.
  - right. destruct (c_loop c); (split; [apply outer_same; cbn; auto; rewrite Hc; split; discriminate|]);
      unfold inner_measure; cbn; rewrite Hc, Ht; cbn; lia.
  - apply (worker_decreases s _ j _ (WClone b) Hj); try reflexivity. cbn. destruct (token s); lia.
  - apply (worker_decreases s _ j _ (WDec b) Hj); try reflexivity. cbn. destruct (token s); lia.
  - eapply (worker_decreases s _ j _ _ Hj); try reflexivity. cbn.
    destruct (Nat.eqb (rc s) (c_unpark_old c)), (token s); cbn; lia.
  - apply (worker_decreases s _ j _ WIdle Hj); try reflexivity. cbn. destruct (token s); lia.
  - left. unfold outer_measure; cbn. rewrite Es, Hc. cbn. lia.
  - apply (worker_decreases s _ j _ WExit Hj); try reflexivity; cbn; [now rewrite Hc|destruct (token s); lia].
Qed.

Lemma lex_induction (P : state -> Prop) :
  (forall s, (forall s', lex_lt s' s -> P s') -> P s) -> forall s, P s.
Proof.
  intros H.
  assert (X : forall o i s, outer_measure s = o -> inner_measure s = i -> P s).
  { induction o as [o IHo] using lt_wf_ind. induction i as [i IHi] using lt_wf_ind.
    intros s Ho Hi. apply H. intros s' [L|[E L]].
    - eapply (IHo (outer_measure s')); [lia|reflexivity|reflexivity].
    - eapply (IHi (inner_measure s')); [lia|congruence|reflexivity]. }
  intros s. eapply X; eauto.
Qed.

(** Some non-spurious step is enabled, and every such step decreases the measure. *)
Lemma reaches_final_inv c s :
  good c -> Inv s -> exists ls s', run c s ls = Some s' /\ final s' = true /\ ~ In ESpurious ls.
Proof.
  intros G. revert s.
  apply (lex_induction (fun s => Inv s -> exists ls s', run c s ls = Some s' /\ final s' = true /\ ~ In ESpurious ls)).
  intros s IH I. destruct (final s) eqn:F.
  - exists [], s. cbn. auto.
  - destruct (can_move_inv c s I F) as (l & s1 & NS & St).
    destruct (IH s1 (measure_decreases c s l s1 I St NS) (inv_step c s l s1 G I St)) as (ls & s' & Rn & Fn & Nin).
    exists (l :: ls), s'. cbn. rewrite St. repeat split; auto.
    intros [E|E]; [congruence|contradiction].
Qed.

Theorem reaches_final c scr s :
  good c -> reachable c scr s ->
  exists ls s', run c s ls = Some s' /\ final s' = true /\ ~ In ESpurious ls.
Proof. intros G R. apply reaches_final_inv; [exact G|exact (inv_reachable _ _ _ G R)]. Qed.

Lemma spurious_recurs {X L} (m : X -> state) (spur : L) (f : nat -> X) (ls : nat -> L) :
  (forall i, ls i = spur \/ lex_lt (m (f (S i))) (m (f i))) ->
  forall N, exists i, N <= i /\ ls i = spur.
Proof.
  intros D.
  assert (P : forall s k, m (f k) = s -> exists i, k <= i /\ ls i = spur).
  { apply (lex_induction (fun s => forall k, m (f k) = s -> exists i, k <= i /\ ls i = spur)).
    intros s IH k <-. destruct (D k) as [E|Lt]; [now exists k|].
    destruct (IH _ Lt (S k) eq_refl) as (i & Hi & Ei). exists i. split; [lia|exact Ei]. }
  intros N. exact (P _ N eq_refl).
Qed.

Lemma spurious_or_not l : l = ESpurious \/ l <> ESpurious.
Proof. destruct l; (now left) || (right; discriminate). Qed.

(** No infinite execution has only finitely many spurious wake-ups. *)
Theorem no_infinite_run c scr (f : nat -> state) (ls : nat -> label) :
  good c -> f 0 = init scr -> (forall i, step c (f i) (ls i) = Some (f (S i))) ->
  forall N, exists i, N <= i /\ ls i = ESpurious.
Proof.
  intros G H0 Hs.
  assert (R : forall i, reachable c scr (f i)).
  { induction i; [rewrite H0; constructor|]. econstructor; eauto. }
  apply (spurious_recurs (fun s => s) ESpurious f ls). intro i.
  destruct (spurious_or_not (ls i)) as [E|NS]; [now left|right].
  exact (measure_decreases c _ _ _ (inv_reachable _ _ _ G (R i)) (Hs i) NS).
Qed.

(** Once the pool is dropped no task is ever called again, the control state
    stays [CDone], and the execution reaches a state where every worker has
    exited. *)
Theorem workers_exit c scr s :
  good c -> reachable c scr s -> cst s = CDone ->
  (forall l s', step c s l = Some s' -> cst s' = CDone /\ calls s' = calls s)
  /\ exists ls s', run c s ls = Some s' /\ cst s' = CDone /\ all_exited s' = true.
Proof.
  intros G R Hc. pose proof (inv_reachable _ _ _ G R) as I. split.
  - intros l s' St.
    assert (NP : Forall (fun w => any_pre w = false) (ws s)) by (apply no_pre_idle; auto; now rewrite Hc).
    destruct (step_inv _ _ _ _ St) as [n rest Hc' Es|j n Hc' Hj|n p Hc'|n Hc'|n Hc' Ht|n Hc'|j b p Hj|j b Hj|j b Hj|j b Hj|Hc' Es|j Hc' Hj];
      try congruence; try (split; [exact Hc || reflexivity|reflexivity]).
    pose proof (Forall_nth_error _ _ _ _ NP Hj). discriminate.
  - destruct (reaches_final c scr s G R) as (ls & s' & Rn & F & _).
    exists ls, s'. split; auto. split; [apply (final_inv s' F)|].
    unfold final in F. now destruct (cst s').
Qed.

(** Worker threads are created only when missing, and kept. *)
Theorem spawn_reuse c s l s' :
  step c s l = Some s' ->
  match l with
  | EBegin n => length (ws s') = Nat.max (length (ws s)) n /\ firstn (length (ws s)) (ws s') = ws s
                /\ skipn (length (ws s)) (ws s') = repeat WIdle (n - length (ws s))
  | _ => length (ws s') = length (ws s)
  end.
Proof.
  intro H. destruct (step_inv _ _ _ _ H); cbn; try apply set_nth_length; try reflexivity.
  - repeat split.
    + rewrite app_length, repeat_length. lia.
    + apply firstn_app_exact.
    + apply skipn_app_exact.
  - now destruct (leave c s).
  - now destruct (c_loop c).
  - now destruct (c_loop c).
Qed.

(** No worker touches a dead task block. *)
Theorem no_access_after_return c scr s :
  good c -> reachable c scr s ->
  bad s = false
  /\ Forall (fun w => any_pre w = true -> pre_dec (cur s) w = true /\ alive s = true) (ws s).
Proof.
  intros G R. pose proof (inv_reachable _ _ _ G R) as I. split; [apply I|].
  eapply Forall_impl; [|exact (I_wf s I)]. intros w. apply wf_pre.
Qed.

(** Whenever the caller is outside the wait loop, all workers are past their
    decrement.  [pool.rs] drops the caller's caught panic payload after the
    loop (line 131).  If that destructor panics, the panic escapes from
    [broadcast]; by this theorem nothing is left behind: no worker still holds
    the task block. *)
Theorem caller_past_loop c scr s :
  good c -> reachable c scr s -> in_broadcast (cst s) = false ->
  alive s = false /\ Forall (fun w => any_pre w = false) (ws s).
Proof.
  intros G R B. pose proof (inv_reachable _ _ _ G R) as I. split.
  - now rewrite (I_alive s I).
  - now apply no_pre_idle.
Qed.
