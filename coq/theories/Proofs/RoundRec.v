(** C08: the caller's bookkeeping stores thread t's sample of
    round r under index r*T + t, and nothing for an empty tally. *)
From Coq Require Import List Arith Lia.
From DivanV Require Import Model.Round Proofs.ListFacts.
Import ListNotations.

Lemma tally_empty_iff : forall s, tally_empty s = false <-> s <> [].
Proof. intros [|a s]; cbn; split; intros; congruence. Qed.

Lemma record_samples_in : forall samples idx m k s,
  In (k, s) (record_samples idx samples m) <->
  In (k, s) m \/ exists j, nth_error samples j = Some s /\ k = idx + j /\ s <> [].
Proof.
  induction samples as [|h t IH]; intros idx m k s; cbn [record_samples].
  - split; [auto|]. intros [H|(j & H & _)]; auto. destruct j; discriminate.
  - rewrite IH. split.
    + intros [H|(j & N & K & E)].
      * destruct (tally_empty h) eqn:TE; auto.
        apply in_app_or in H. destruct H as [H|[H|[]]]; auto.
        inversion H; subst. right. exists 0. cbn. repeat split; auto; try lia.
        apply tally_empty_iff. exact TE.
      * right. exists (S j). cbn. repeat split; auto. lia.
    + intros [H|(j & N & K & E)].
      * left. destruct (tally_empty h); auto. apply in_or_app. auto.
      * destruct j as [|j]; cbn in N.
        -- inversion N; subst. left. apply tally_empty_iff in E. rewrite E.
           apply in_or_app. right. left. f_equal. lia.
        -- right. exists j. repeat split; auto. lia.
Qed.

Lemma run_records_in : forall c n r idx m k s,
  In (k, s) (run_records c r n idx m) <->
  In (k, s) m \/
  exists j t, j < n /\ t < nthreads c /\ k = idx + j * nthreads c + t /\
              s = own_allocs c t (r + j) /\ s <> [].
Proof.
  intros c n. induction n as [|n IH]; intros r idx m k s; cbn [run_records].
  - split; [auto|]. intros [H|(j & t & H & _)]; auto. lia.
  - rewrite IH, record_samples_in. split.
    + intros [[H|(t & N & K & E)]|(j & t & J & T & K & SO & E)].
      * auto.
      * right. exists 0, t.
        pose proof (nth_error_lt _ _ _ N) as TL. rewrite map_length, seq_length in TL.
        rewrite nth_error_map, nth_error_seq in N by lia. cbn in N. inversion N; subst.
        repeat split; auto; try lia; try (rewrite Nat.add_0_r; reflexivity).
      * right. exists (S j), t. repeat split; auto; try lia;
          try (rewrite SO; f_equal; lia).
    + intros [H|(j & t & J & T & K & SO & E)]; auto.
      destruct j as [|j].
      * left. right. exists t. repeat split; auto; try lia.
        rewrite nth_error_map, nth_error_seq by lia. cbn. rewrite SO, Nat.add_0_r. reflexivity.
      * right. exists j, t. repeat split; auto; try lia;
          try (rewrite SO; f_equal; lia).
Qed.

Theorem sample_index : forall c k s,
  In (k, s) (records c) <->
  exists r t, r < nrounds c /\ t < nthreads c /\ k = r * nthreads c + t /\
              s = own_allocs c t r /\ s <> [].
Proof.
  intros c k s. unfold records. rewrite run_records_in. cbn. split.
  - intros [[]|(j & t & H)]. exists j, t. exact H.
  - intros (r & t & H). right. exists r, t. exact H.
Qed.

(** The entry under index r*T + t is thread t's sample of round r - never
    another thread's - and there is none when thread t's tally is empty. *)
Theorem sample_index_own : forall c r t s,
  t < nthreads c -> In (r * nthreads c + t, s) (records c) ->
  r < nrounds c /\ s = own_allocs c t r /\ s <> [].
Proof.
  intros c r t s T H. apply sample_index in H. destruct H as (r' & t' & R & T' & K & SO & E).
  assert (r = r' /\ t = t') as [-> ->].
  { assert (r = r') by nia. subst. split; auto. lia. }
  auto.
Qed.
