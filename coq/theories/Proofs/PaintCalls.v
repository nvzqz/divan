(** C20: ignored benchmarks are marked and not run; the calls made are exactly
    the expected ones. *)
From DivanV Require Import Base.Res Model.Painter Model.DriverPaint Model.Parse Proofs.PaintDriver.

Lemma invokes_app : forall a b, invokes (a ++ b) = invokes a ++ invokes b.
Proof. intros. apply flat_map_app. Qed.

Lemma invokes_parent : forall name l body,
  invokes ([StartParent name l] ++ body ++ [FinishParent]) = invokes body.
Proof. intros. rewrite !invokes_app. cbn [invokes flat_map app]. apply app_nil_r. Qed.

Lemma invokes_threads : forall a id arg outf has_tb ilb tcs i,
  invokes (for_last tcs i (fun i i_is_last tc =>
       let is_last_tc := if has_tb : bool then i_is_last else ilb in
       (if has_tb then [StartLeaf (thread_name tc) is_last_tc] else [])
       ++ [Invoke id arg tc]
       ++ (if did_run (outf i) && is_bench a
           then [FinishLeaf is_last_tc (cells (outf i))]
           else [FinishEmptyLeaf])))
  = calls_bench id arg tcs.
Proof.
  intros a id arg outf has_tb ilb tcs. induction tcs as [|tc r IH]; intros i; [reflexivity|].
  cbn [for_last calls_bench map]. rewrite invokes_app, IH.
  destruct has_tb; destruct (did_run (outf i) && is_bench a); reflexivity.
Qed.

Lemma invokes_bench : forall a id arg tcs outf name l,
  invokes (run_bench a id arg tcs outf name l) = calls_bench id arg tcs.
Proof.
  intros. unfold run_bench. rewrite for_enum_eq.
  destruct (Nat.ltb 1 (length tcs)).
  - rewrite invokes_parent. exact (invokes_threads a id arg outf true l tcs 0).
  - rewrite app_nil_r. exact (invokes_threads a id arg outf false l tcs 0).
Qed.

Lemma invokes_args : forall a id tcs out names i,
  invokes (for_last names i (fun i il an => run_bench a id (Some i) tcs (out i) an il))
  = flat_map (fun ia => calls_bench id (Some (fst ia)) tcs) (enum_from i names).
Proof.
  intros a id tcs out names. induction names as [|an r IH]; intros i; [reflexivity|].
  cbn [for_last enum_from flat_map fst]. rewrite invokes_app, invokes_bench, IH. reflexivity.
Qed.

Lemma invokes_entry : forall a id name ignored args threads out l,
  invokes (run_bench_entry a id name ignored args threads out l) = calls_entry a id ignored args threads.
Proof.
  intros. unfold run_bench_entry, calls_entry.
  destruct ignored; [reflexivity|]. destruct (is_list a); [reflexivity|].
  destruct args as [names|].
  - rewrite for_enum_eq, invokes_parent. apply invokes_args.
  - apply invokes_bench.
Qed.

Lemma invokes_kids : forall a l,
  (forall n, In n l -> forall last, invokes (run_node a last n) = calls a n) ->
  invokes (run_kids a l) = flat_map (calls a) l.
Proof.
  intros a l. unfold run_kids. generalize 0.
  induction l as [|c r IH]; intros i H; [reflexivity|].
  cbn [for_last flat_map]. rewrite invokes_app, (H c (or_introl eq_refl)), IH; [reflexivity|].
  intros n Hn. apply H. right. exact Hn.
Qed.

Lemma invokes_node : forall a n l, invokes (run_node a l n) = calls a n.
Proof.
  intros a n. induction n as [name sc children IH | id name sc ignored args threads out] using node_ind2; intros l.
  - rewrite run_node_group, invokes_parent. apply invokes_kids. rewrite Forall_forall in IH. exact IH.
  - apply invokes_entry.
Qed.

(** Ignored benchmarks: one line whose first cell is [(ignored)], no call;
    and over the whole tree the calls made are exactly [all_calls], to which
    ignored entries (and listing) contribute nothing. *)
Theorem ignored_marked : forall a,
  (forall id name args threads out l,
     run_bench_entry a id name true args threads out l = [IgnoreLeaf name l] /\
     calls_entry a id true args threads = [] /\
     pic_entry a name true args threads out =
       Pic name (Some (if is_bench a then from_first s_ignored else [s_ignored])) [] []) /\
  (forall t, invokes (paint_ops a t) = all_calls a t).
Proof.
  intros a. split; [intros; repeat split; reflexivity|].
  intros t. rewrite paint_ops_eq. apply invokes_kids. intros c _. apply invokes_node.
Qed.
