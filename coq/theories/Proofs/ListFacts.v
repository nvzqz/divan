(** Facts about the standard library's lists, and at the end about powers of
    ten, that the library itself does not state; the proofs of the development
    share them.  They stand by the function they speak of: [map], [flat_map],
    [filter], [existsb], [find] and the folds; [forallb], [Forall], [Forall2];
    [nth_error], [firstn], [skipn], [seq]; [In], [NoDup], [Permutation]. *)
From Coq Require Import List Permutation PeanoNat BinNat Nnat.
Import ListNotations.

Lemma flat_map_map {A B C} (f : B -> list C) (g : A -> B) l :
  flat_map f (map g l) = flat_map (fun x => f (g x)) l.
Proof. rewrite !flat_map_concat_map, map_map. reflexivity. Qed.

Lemma map_flat_map {A B C} (f : B -> C) (g : A -> list B) l :
  map f (flat_map g l) = flat_map (fun x => map f (g x)) l.
Proof. rewrite !flat_map_concat_map, concat_map, map_map. reflexivity. Qed.

Lemma flat_map_flat_map {A B C} (f : A -> list B) (g : B -> list C) l :
  flat_map g (flat_map f l) = flat_map (fun x => flat_map g (f x)) l.
Proof. induction l as [|x tl IH]; cbn; [reflexivity|]. rewrite flat_map_app, IH. reflexivity. Qed.

Lemma flat_map_ext_in {A B} (f g : A -> list B) l :
  (forall x, In x l -> f x = g x) -> flat_map f l = flat_map g l.
Proof.
  intros H. rewrite !flat_map_concat_map. f_equal. apply map_ext_in. exact H.
Qed.

Lemma filter_flat_map {A B} (p : B -> bool) (f : A -> list B) l :
  filter p (flat_map f l) = flat_map (fun x => filter p (f x)) l.
Proof. rewrite !flat_map_concat_map, <- concat_filter_map, map_map. reflexivity. Qed.

Lemma filter_map_commute {A B} (g : A -> B) (p : B -> bool) l :
  filter p (map g l) = map g (filter (fun x => p (g x)) l).
Proof.
  induction l as [|x l IH]; cbn [map filter]; [reflexivity|].
  destruct (p (g x)); cbn [map]; rewrite IH; reflexivity.
Qed.

Lemma filter_all {A} (q : A -> bool) l : (forall x, In x l -> q x = true) -> filter q l = l.
Proof.
  induction l as [|x tl IH]; intro H; cbn; [reflexivity|].
  rewrite (H x (or_introl eq_refl)). f_equal. apply IH. intros y Hy. apply H. right. exact Hy.
Qed.

Lemma filter_none {A} (q : A -> bool) l : (forall x, In x l -> q x = false) -> filter q l = [].
Proof.
  induction l as [|x tl IH]; intro H; cbn; [reflexivity|].
  rewrite (H x (or_introl eq_refl)). apply IH. intros y Hy. apply H. right. exact Hy.
Qed.

Lemma flat_map_filter {A B} (g : A -> list B) (p : A -> bool) (q : B -> bool) l :
  (forall i x, In x (g i) -> q x = p i) ->
  flat_map g (filter p l) = filter q (flat_map g l).
Proof.
  intro H. induction l as [|i tl IH]; cbn [filter flat_map]; [reflexivity|].
  rewrite filter_app, <- IH. destruct (p i) eqn:E.
  - cbn [flat_map]. f_equal. symmetry. apply filter_all. intros x Hx. rewrite (H i x Hx). exact E.
  - rewrite (filter_none q (g i)); [reflexivity|]. intros x Hx. rewrite (H i x Hx). exact E.
Qed.

Lemma count_zero_Forall {A} (p : A -> bool) l :
  length (filter p l) = 0 <-> Forall (fun x => p x = false) l.
Proof.
  induction l as [|h t IH]; cbn; [split; auto|].
  destruct (p h) eqn:E; cbn; split; intro H.
  - discriminate H.
  - inversion H; congruence.
  - constructor; auto. now apply IH.
  - inversion H; subst. now apply IH.
Qed.

Lemma count_pos {A} (p : A -> bool) l i w :
  nth_error l i = Some w -> p w = true -> 1 <= length (filter p l).
Proof.
  intros E Hp. assert (H : In w (filter p l)) by (apply filter_In; split; [exact (nth_error_In _ _ E)|exact Hp]).
  destruct (filter p l); [destruct H|apply le_n_S, Nat.le_0_l].
Qed.

Lemma count_pos_exists {A} (p : A -> bool) l :
  1 <= length (filter p l) -> exists j x, nth_error l j = Some x /\ p x = true.
Proof.
  induction l as [|h t IH]; cbn; [intro H; inversion H|].
  destruct (p h) eqn:E; cbn; intro H.
  - exists 0, h. auto.
  - destruct (IH H) as (j & x & E1 & E2). exists (S j), x. auto.
Qed.

Lemma map_all_const {A B} (f : A -> B) k l : (forall x, In x l -> f x = k) -> map f l = repeat k (length l).
Proof.
  induction l as [|h t IH]; intros H; [reflexivity|]. cbn.
  rewrite (H h (or_introl eq_refl)), IH; auto. intros. apply H. right; auto.
Qed.

Lemma map_const_repeat {A} (v : A) start len : map (fun _ => v) (seq start len) = repeat v len.
Proof. rewrite (map_all_const _ v), seq_length; reflexivity. Qed.

Lemma rev_repeat {A} (c : A) m : rev (repeat c m) = repeat c m.
Proof.
  induction m as [|m IH]; [reflexivity|]. cbn [repeat rev]. rewrite IH. symmetry. apply repeat_cons.
Qed.

Lemma existsb_map {A B} (p : B -> bool) (g : A -> B) l :
  existsb p (map g l) = existsb (fun x => p (g x)) l.
Proof. induction l as [|x l IH]; cbn [map existsb]; [reflexivity|]. rewrite IH. reflexivity. Qed.

Lemma existsb_filter_nil {A} (p : A -> bool) l :
  existsb p l = match filter p l with [] => false | _ => true end.
Proof.
  induction l as [|x l IH]; cbn [existsb filter]; [reflexivity|].
  destruct (p x); [reflexivity|]. exact IH.
Qed.

Lemma existsb_false_iff {A} (p : A -> bool) l :
  existsb p l = false <-> forall x, In x l -> p x = false.
Proof.
  rewrite <- Bool.not_true_iff_false, existsb_exists. split.
  - intros H x Hin. apply Bool.not_true_iff_false. intros Hp. apply H. exists x. split; assumption.
  - intros H [x [Hin Hp]]. rewrite (H x Hin) in Hp. discriminate.
Qed.

Lemma find_ext_in {A} (f g : A -> bool) l : (forall x, In x l -> f x = g x) -> find f l = find g l.
Proof.
  induction l as [|x tl IH]; intro H; [reflexivity|]. cbn. rewrite (H x (or_introl eq_refl)).
  destruct (g x); [reflexivity|]. apply IH. intros y Hy. apply H. right. exact Hy.
Qed.

Lemma fold_left_inv {A B} (P : A -> Prop) (f : A -> B -> A) l a :
  (forall a b, P a -> P (f a b)) -> P a -> P (fold_left f l a).
Proof.
  intros Hf. revert a. induction l as [|b l IH]; intros a Ha; cbn; [exact Ha|].
  apply IH, Hf, Ha.
Qed.

Lemma fold_left_max_ge l w : w <= fold_left Nat.max l w.
Proof.
  apply (fold_left_inv (le w)); [|apply Nat.le_refl].
  intros a b H. apply (Nat.le_trans _ _ _ H), Nat.le_max_l.
Qed.

Lemma sum_repeat s k : fold_right N.add 0%N (repeat s k) = (s * N.of_nat k)%N.
Proof.
  induction k as [|k IH]; cbn [repeat fold_right]; [apply eq_sym, N.mul_0_r|].
  rewrite IH, Nat2N.inj_succ, N.mul_succ_r. apply N.add_comm.
Qed.

Lemma forallb_Forall {A} (p : A -> bool) l : forallb p l = true <-> Forall (fun x => p x = true) l.
Proof. rewrite forallb_forall, Forall_forall. reflexivity. Qed.

Lemma forallb_Forall_impl {A} (f : A -> bool) (P : A -> Prop) :
  (forall x, f x = true -> P x) -> forall l, forallb f l = true -> Forall P l.
Proof. intros H l Hl. apply forallb_Forall in Hl. revert Hl. apply Forall_impl. exact H. Qed.

Lemma forallb_app_intro {A} (q : A -> bool) l1 l2 :
  forallb q l1 = true -> forallb q l2 = true -> forallb q (l1 ++ l2) = true.
Proof. intros H1 H2. rewrite forallb_app, H1, H2. reflexivity. Qed.

Lemma forallb_flat_map {A B} (q : B -> bool) (f : A -> list B) l :
  (forall x, In x l -> forallb q (f x) = true) -> forallb q (flat_map f l) = true.
Proof.
  induction l as [|x tl IH]; intro H; cbn; [reflexivity|].
  apply forallb_app_intro; [apply H; left; reflexivity|]. apply IH. intros y Hy. apply H. right. exact Hy.
Qed.

Lemma forallb_filter {A} (q p : A -> bool) l : forallb q l = true -> forallb q (filter p l) = true.
Proof.
  intros H. apply forallb_forall. intros x Hx. apply filter_In in Hx.
  apply (proj1 (forallb_forall q l) H), Hx.
Qed.

Lemma forallb_seq (P : nat -> bool) (Q : nat -> Prop) n : (forall j, P j = true <-> Q j) ->
  (forallb P (seq 0 n) = true <-> (forall j, j < n -> Q j)).
Proof.
  intros HPQ. rewrite forallb_forall. split.
  - intros H j Hj. apply HPQ, H, in_seq. split; [apply Nat.le_0_l|exact Hj].
  - intros H j Hj. apply in_seq in Hj. apply HPQ, H, Hj.
Qed.

Lemma forallb_false_exists {A} (p : A -> bool) l :
  forallb p l = false -> exists j x, nth_error l j = Some x /\ p x = false.
Proof.
  induction l as [|h t IH]; cbn; [discriminate|].
  destruct (p h) eqn:E; cbn; intro H.
  - destruct (IH H) as (j & x & E1 & E2). exists (S j), x. auto.
  - exists 0, h. auto.
Qed.

Lemma Forall_all {A} (P : A -> Prop) l : (forall x, P x) -> Forall P l.
Proof. intros H. apply Forall_forall. intros x _. apply H. Qed.

Lemma Forall_repeat {A} (P : A -> Prop) x n : P x -> Forall P (repeat x n).
Proof. intro H. induction n; cbn; constructor; auto. Qed.

Lemma Forall_impl2 {A} (P Q R : A -> Prop) l :
  (forall x, P x -> Q x -> R x) -> Forall P l -> Forall Q l -> Forall R l.
Proof. intros H HP HQ. rewrite Forall_forall in *. auto. Qed.

Lemma Forall_nth_error {A} (P : A -> Prop) l i x : Forall P l -> nth_error l i = Some x -> P x.
Proof. intros H E. apply (proj1 (Forall_forall P l) H), (nth_error_In l i), E. Qed.

Lemma Exists_nth_error {A} (P : A -> Prop) l : Exists P l -> exists j x, nth_error l j = Some x /\ P x.
Proof.
  intro H. apply Exists_exists in H as (x & Hx & Px). apply In_nth_error in Hx as (j & Hj). eauto.
Qed.

Lemma Forall2_diag {A} (R : A -> A -> Prop) l : Forall (fun x => R x x) l -> Forall2 R l l.
Proof. intros H. induction H; constructor; assumption. Qed.

Lemma Forall2_impl {A B} (P Q : A -> B -> Prop) l1 l2 :
  (forall a b, P a b -> Q a b) -> Forall2 P l1 l2 -> Forall2 Q l1 l2.
Proof. intros H F. induction F; constructor; auto. Qed.

Lemma Forall2_map_right {A B C} (P : A -> C -> Prop) (f : B -> C) l ps :
  Forall2 (fun x p => P x (f p)) l ps -> Forall2 P l (map f ps).
Proof. induction 1; cbn [map]; constructor; assumption. Qed.

Lemma Forall2_map_self_r {A B} (P : A -> B -> Prop) (g : A -> B) l :
  Forall (fun a => P a (g a)) l -> Forall2 P l (map g l).
Proof. intros H. apply Forall2_map_right, Forall2_diag, H. Qed.

Lemma Forall2_map_self_l {A B} (P : B -> A -> Prop) (f : A -> B) l :
  (forall v, P (f v) v) -> Forall2 P (map f l) l.
Proof. intros H. induction l; cbn [map]; constructor; auto. Qed.

Lemma nth_error_lt {A} (l : list A) i x : nth_error l i = Some x -> i < length l.
Proof. intro H. apply nth_error_Some. congruence. Qed.

Lemma lt_nth_error {A} (l : list A) i : i < length l -> exists x, nth_error l i = Some x.
Proof.
  intros H. apply nth_error_Some in H.
  destruct (nth_error l i) as [x|]; [exists x; reflexivity|destruct H; reflexivity].
Qed.

Lemma skipn_nth_error {A} (l : list A) i x : nth_error l i = Some x -> skipn i l = x :: skipn (S i) l.
Proof.
  revert i. induction l as [|y l IH]; intros [|i] H; try discriminate.
  - injection H as ->. reflexivity.
  - exact (IH i H).
Qed.

Lemma firstn_S_snoc {A} (l : list A) i x : nth_error l i = Some x -> firstn (S i) l = firstn i l ++ [x].
Proof.
  revert i. induction l as [|y l IH]; intros [|i] H; try discriminate.
  - injection H as <-. reflexivity.
  - cbn [firstn app]. f_equal. apply IH. exact H.
Qed.

Lemma firstn_app_exact {A} (l1 l2 : list A) : firstn (length l1) (l1 ++ l2) = l1.
Proof. rewrite firstn_app, Nat.sub_diag, firstn_all. cbn [firstn]. apply app_nil_r. Qed.

Lemma skipn_app_exact {A} (l1 l2 : list A) : skipn (length l1) (l1 ++ l2) = l2.
Proof. rewrite skipn_app, Nat.sub_diag, skipn_all. reflexivity. Qed.

Lemma skipn_snoc {A} (l : list A) (x : A) j : j <= length l -> skipn j (l ++ [x]) = skipn j l ++ [x].
Proof. intros H. rewrite skipn_app. apply Nat.sub_0_le in H. rewrite H. reflexivity. Qed.

Lemma last_as_skipn {A} (l : list A) :
  match rev l with [] => [] | o :: _ => [o] end = skipn (length l - 1) l.
Proof.
  induction l as [|x l _] using rev_ind; [reflexivity|].
  rewrite rev_app_distr, last_length, Nat.sub_succ, Nat.sub_0_r, skipn_app_exact. reflexivity.
Qed.

Lemma nth_error_seq a n p : p < n -> nth_error (seq a n) p = Some (a + p).
Proof.
  intros H. rewrite (nth_error_nth' (seq a n) 0), seq_nth; [reflexivity|exact H|].
  rewrite seq_length. exact H.
Qed.

Lemma seq_split3 n k : k < n -> seq 0 n = seq 0 k ++ k :: seq (S k) (n - S k).
Proof.
  intros H. rewrite <- (Nat.sub_add (S k) n H) at 1.
  rewrite Nat.add_comm, Nat.add_succ_l, <- Nat.add_succ_r, seq_app. reflexivity.
Qed.

Lemma firstn_map_seq {A} (F : nat -> A) n m : n <= m -> firstn n (map F (seq 0 m)) = map F (seq 0 n).
Proof.
  intros H. rewrite firstn_map, <- (Nat.sub_add n m H), Nat.add_comm, seq_app.
  rewrite firstn_app, seq_length, Nat.sub_diag, firstn_O, app_nil_r, firstn_all2; [reflexivity|].
  rewrite seq_length. apply Nat.le_refl.
Qed.

Lemma in_snoc {A} (l : list A) x y : In y (l ++ [x]) <-> In y l \/ y = x.
Proof. rewrite in_app_iff. cbn. split; [intros [H|[->|[]]]|intros [H| ->]]; auto. Qed.

Lemma notin_app {A} (c : A) a b : ~ In c a -> ~ In c b -> ~ In c (a ++ b).
Proof. intros Ha Hb H. apply in_app_or in H. tauto. Qed.

Lemma NoDup_snoc {A} (l : list A) x : NoDup l -> ~ In x l -> NoDup (l ++ [x]).
Proof. intros N H. apply (NoDup_Add (Add_app x l [])). now rewrite app_nil_r. Qed.

Lemma NoDup_app_l {A} (a b : list A) : NoDup (a ++ b) -> NoDup a.
Proof.
  induction b as [|x b IH] using rev_ind; [rewrite app_nil_r; trivial|].
  rewrite app_assoc. intros H. apply IH. apply NoDup_remove_1 in H. rewrite app_nil_r in H. exact H.
Qed.

Lemma NoDup_map_inj {A B} (f : A -> B) l :
  (forall x y, In x l -> In y l -> f x = f y -> x = y) -> NoDup l -> NoDup (map f l).
Proof.
  induction l as [|a r IH]; intros Inj H; simpl; [constructor|].
  inversion H as [|? ? Hn Hr]; subst. constructor.
  - intros Hin. apply in_map_iff in Hin. destruct Hin as (b & E & Hb).
    assert (b = a) by (apply Inj; [right; exact Hb|left; reflexivity|exact E]). subst b. contradiction.
  - apply IH; [|exact Hr]. intros x y Hx Hy. apply Inj; right; assumption.
Qed.

Lemma Permutation_filter {A} (p : A -> bool) l l' : Permutation l l' -> Permutation (filter p l) (filter p l').
Proof.
  intros H. induction H; cbn.
  - constructor.
  - destruct (p x); [constructor|]; assumption.
  - destruct (p x), (p y); [apply perm_swap| | |]; apply Permutation_refl.
  - eapply Permutation_trans; eassumption.
Qed.

Lemma filter_rev_length {A} (f : A -> bool) l : length (filter f (rev l)) = length (filter f l).
Proof. apply Permutation_length, Permutation_filter, Permutation_sym, Permutation_rev. Qed.

Lemma Permutation_forallb {A} (q : A -> bool) l l' : Permutation l l' -> forallb q l = true -> forallb q l' = true.
Proof. intros H. rewrite !forallb_Forall. apply Permutation_Forall, H. Qed.

Lemma Permutation_existsb {A} (p : A -> bool) l1 l2 : Permutation l1 l2 -> existsb p l1 = existsb p l2.
Proof.
  intros H. induction H as [|x l l' _ IH|x y l|l l' l'' _ IH1 _ IH2].
  - reflexivity.
  - cbn [existsb]. rewrite IH. reflexivity.
  - cbn [existsb]. destruct (p x); destruct (p y); reflexivity.
  - rewrite IH1. exact IH2.
Qed.

Lemma Permutation_nil_test {A} (l l' : list A) :
  Permutation l l' ->
  match l with [] => true | _ => false end = match l' with [] => true | _ => false end.
Proof. intros H. apply Permutation_length in H. destruct l, l'; try reflexivity; discriminate H. Qed.

Lemma Permutation_flat_map_Forall2 {A B} (R : A -> A -> Prop) (f : A -> list B) l l' :
  Forall2 R l l' -> (forall x y, In x l -> R x y -> Permutation (f x) (f y)) ->
  Permutation (flat_map f l) (flat_map f l').
Proof.
  intros H. induction H as [|x y l l' Hxy Hl IH]; intro Hf; cbn; [apply Permutation_refl|].
  apply Permutation_app; [apply Hf; [left; reflexivity|exact Hxy]|].
  apply IH. intros a b Ha Hab. apply Hf; [right; exact Ha|exact Hab].
Qed.

Lemma pow10_nz k : (10 ^ k <> 0)%N.
Proof. apply N.pow_nonzero. discriminate. Qed.

Lemma pow10_pos k : (0 < 10 ^ k)%N.
Proof. apply N.neq_0_lt_0, pow10_nz. Qed.
