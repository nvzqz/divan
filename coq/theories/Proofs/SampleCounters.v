(** Counter-set resolution: the last counter call of a kind decides; calls of
    other kinds do not matter. *)

From DivanV Require Import Base.Res Model.Sample.

Lemma resolve_snoc l c : resolve (l ++ [c]) = cc_step (resolve l) c.
Proof. unfold resolve. rewrite fold_left_app. reflexivity. Qed.

Lemma kind_eqb_refl k : kind_eqb k k = true.
Proof. destruct k; reflexivity. Qed.

Lemma kind_eqb_eq a b : kind_eqb a b = true <-> a = b.
Proof. destruct a, b; cbn; split; intros H; try reflexivity; discriminate. Qed.

Theorem resolve_last l c : resolve (l ++ [c]) (ccall_kind c) = ccall_stat c.
Proof. rewrite resolve_snoc. unfold cc_step. rewrite kind_eqb_refl. reflexivity. Qed.

Lemma cc_steps_others l st k :
  Forall (fun c => ccall_kind c <> k) l -> fold_left cc_step l st k = st k.
Proof.
  intros H. revert st. induction H as [|c l Hc _ IH]; intros st; cbn; [reflexivity|].
  rewrite IH. unfold cc_step. destruct (kind_eqb k (ccall_kind c)) eqn:E; [|reflexivity].
  apply kind_eqb_eq in E. congruence.
Qed.

Lemma resolve_decided l1 c l2 :
  Forall (fun c' => ccall_kind c' <> ccall_kind c) l2 ->
  resolve (l1 ++ c :: l2) (ccall_kind c) = ccall_stat c.
Proof.
  intros H. unfold resolve. rewrite fold_left_app. cbn [fold_left]. rewrite cc_steps_others by exact H.
  unfold cc_step. rewrite kind_eqb_refl. reflexivity.
Qed.

Theorem resolve_other l c k : k <> ccall_kind c -> resolve (l ++ [c]) k = resolve l k.
Proof.
  intros H. unfold resolve. rewrite fold_left_app. apply cc_steps_others. repeat constructor. congruence.
Qed.

Theorem resolve_none k : resolve [] k = KNone.
Proof. reflexivity. Qed.

(** When there is a call of kind [k]: [k] has an input counter in force iff the
    last such call is an input-counter call. *)
Theorem in_force_iff_last_is_input l1 c l2 k :
  ccall_kind c = k -> Forall (fun c' => ccall_kind c' <> k) l2 ->
  uses (counters_in_force (resolve (l1 ++ c :: l2)) false) k =
  match c with CInput _ _ => true | CConst _ => false end.
Proof.
  intros <- Hl2. pose proof (resolve_decided l1 c l2 Hl2) as H.
  unfold counters_in_force. destruct (ccall_kind c); cbn; rewrite H; destruct c; reflexivity.
Qed.
