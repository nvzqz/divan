(** The result slots of [par_extend] (C06): by [InvS] the slots of the current
    broadcast and of every return record are [expected_slots] of the call log. *)

From DivanV Require Import Model.Pool Proofs.Pool Proofs.PoolCalls Proofs.ListFacts.
From Coq Require Import Arith Lia List.
Import ListNotations.
Import PoolM.

Lemma vmem_iff c l l' : (In c l <-> In c l') -> vmem c l = vmem c l'.
Proof.
  intro H. apply Bool.eq_true_iff_eq. rewrite !vmem_In. exact H.
Qed.

Lemma vmem_snoc_other c l x : c <> x -> vmem c (l ++ [x]) = vmem c l.
Proof. intro N. apply vmem_iff. rewrite in_snoc. intuition. Qed.

Lemma vmem_snoc_same c l : vmem c (l ++ [c]) = true.
Proof. apply vmem_In. apply in_snoc. auto. Qed.

Lemma vmem_false c l : ~ In c l -> vmem c l = false.
Proof. intro H. destruct (vmem c l) eqn:E; auto. apply vmem_In in E. contradiction. Qed.

Lemma slots_eqb_refl l : slots_eqb l l = true.
Proof.
  induction l as [|[x|] t IH]; cbn; auto. now rewrite Nat.eqb_refl.
Qed.

Lemma expected_slots_ext s s' b n :
  (forall i, vmem (b, i) (calls s') = vmem (b, i) (calls s)) ->
  (forall i, vmem (b, i) (panics s') = vmem (b, i) (panics s)) ->
  expected_slots s' b n = expected_slots s b n.
Proof.
  intros H1 H2. unfold expected_slots. apply map_ext. intro i. unfold expected_slot. now rewrite H1, H2.
Qed.

Record InvS (s : state) : Prop := {
  S_cur : in_broadcast (cst s) = true -> slots s = expected_slots s (cur s) (bcast_n (cst s));
  S_ret : Forall (fun r => r_slots r = expected_slots s (r_b r) (r_n r)) (returned s)
}.

Lemma invs_init scr : InvS (init scr).
Proof. constructor; cbn; [discriminate|constructor]. Qed.

Lemma invs_begin scr s n rest : Inv2 scr s -> InvS s -> InvS (st_begin s n rest).
Proof.
  intros J SS. constructor; unfold st_begin; cbn [slots cst cur calls panics returned].
  - intros _.
    destruct (begin_cst n) as [_ N'].
    rewrite N'. unfold expected_slots. rewrite <- (map_const_repeat None 0 (S n)).
    apply map_ext. intro i. unfold expected_slot. cbn [calls panics].
    rewrite (vmem_false (S (cur s), i) (calls s)); auto.
    intro X. apply (J_le _ _ J) in X. cbn in X. lia.
  - eapply Forall_impl; [|exact (S_ret _ SS)]. intros r H. rewrite H.
    symmetry. apply expected_slots_ext; reflexivity.
Qed.

Lemma invs_return s n cv tok : InvS s -> cst s = CLoad n -> InvS (do_return s n cv tok).
Proof.
  intros SS Hc. constructor; unfold do_return; cbn; [discriminate|].
  apply Forall_app. split.
  - eapply Forall_impl; [|exact (S_ret _ SS)]. intros r H. rewrite H.
    symmetry. apply expected_slots_ext; reflexivity.
  - constructor; [|constructor]. cbn.
    assert (B : in_broadcast (cst s) = true) by now rewrite Hc.
    rewrite (S_cur _ SS B), Hc. cbn. apply expected_slots_ext; reflexivity.
Qed.

Theorem invs_step c scr s l s' :
  good c -> Inv s -> Inv2 scr s -> InvS s -> step c s l = Some s' -> InvS s'.
Proof.
  intros G I J SS H.
  destruct (step_log_effect c s l s' G I H)
    as [s' Hc Hp Hs Hr Hu _ Hi Hn _|s' x p B Hx Hle Hc Hp Hs Hr Hu _ _ Hn _|n rest Hc Es|n cv tok Hc Hr].
  - constructor.
    + rewrite Hi, Hs, Hu, Hn. intros B. rewrite (S_cur _ SS B).
      symmetry. apply expected_slots_ext; intros; now rewrite ?Hc, ?Hp.
    + rewrite Hr. eapply Forall_impl; [|exact (S_ret _ SS)]. intros r E. rewrite E.
      symmetry. apply expected_slots_ext; intros; now rewrite ?Hc, ?Hp.
  - assert (Nin : ~ In (cur s, x) (calls s)).
    { intro X. apply (J_cur _ _ J B) in X. congruence. }
    assert (Npan : ~ In (cur s, x) (panics s)) by (intro X; apply Nin; now apply (J_pan _ _ J)).
    constructor.
    + intros _. rewrite Hu, Hn, Hs, (S_cur _ SS B).
      unfold expected_slots.
      assert (Oth : forall i, i <> x -> expected_slot s' (cur s) i = expected_slot s (cur s) i).
      { intros i N. unfold expected_slot. rewrite Hc, Hp.
        rewrite vmem_snoc_other by congruence.
        destruct p; [rewrite vmem_snoc_other by congruence|]; reflexivity. }
      destruct p.
      * symmetry. apply map_ext. intro i. destruct (Nat.eq_dec i x) as [->|N]; [|auto].
        unfold expected_slot. rewrite Hc, Hp, !vmem_snoc_same, (vmem_false _ _ Nin). reflexivity.
      * rewrite (map_seq_set_nth (expected_slot s (cur s)) (expected_slot s' (cur s)) (S (bcast_n (cst s))) 0 x) by (auto; lia).
        rewrite Nat.sub_0_r. f_equal.
        unfold expected_slot. rewrite Hc, Hp, vmem_snoc_same, (vmem_false _ _ Npan). reflexivity.
    + rewrite Hr. pose proof (J_ret _ _ J) as Rt.
      pose proof (S_ret _ SS) as Sr.
      rewrite Forall_forall in *. intros r Hin. rewrite (Sr r Hin).
      destruct (Rt r Hin) as [R1 _]. rewrite B in R1.
      symmetry. apply expected_slots_ext; intro i; rewrite ?Hc, ?Hp.
      * apply vmem_snoc_other. intro E. inversion E. lia.
      * destruct p; auto. apply vmem_snoc_other. intro E. inversion E. lia.
  - now apply (invs_begin scr).
  - now apply invs_return.
Qed.

Theorem invs_reachable c scr s : good c -> reachable c scr s -> InvS s.
Proof.
  intros G R. induction R.
  - apply invs_init.
  - eapply invs_step; eauto; [eapply inv_reachable|eapply inv2_reachable]; eauto.
Qed.

(** The result slots handed back by a returned broadcast are, index by index,
    [Some i] when call [i] was made and did not panic and [None] otherwise —
    and (by once-per-index) every call [0..=n] was made, so the empty entries
    are exactly the panicked calls.  Later broadcasts do not disturb them. *)
Theorem results_indexed_returned c scr s r :
  good c -> reachable c scr s -> In r (returned s) ->
  r_slots r = expected_slots s (r_b r) (r_n r)
  /\ length (r_slots r) = S (r_n r)
  /\ forall i, i <= r_n r ->
       nth_error (r_slots r) i = Some (if vmem (r_b r, i) (panics s) then None else Some i).
Proof.
  intros G R Hr. pose proof (invs_reachable _ _ _ G R) as SS. pose proof (inv2_reachable _ _ _ G R) as J.
  pose proof (S_ret _ SS) as F. rewrite Forall_forall in F. specialize (F _ Hr).
  pose proof (J_ret _ _ J) as Rt. rewrite Forall_forall in Rt. destruct (Rt _ Hr) as [_ Hall].
  split; auto. rewrite F. unfold expected_slots. split.
  - now rewrite map_length, seq_length.
  - intros i Hi. rewrite nth_error_map, nth_error_seq by lia. cbn. unfold expected_slot.
    assert (M : vmem (r_b r, i) (calls s) = true) by (apply vmem_In; now apply Hall).
    rewrite M. cbn. now destruct (vmem (r_b r, i) (panics s)).
Qed.
