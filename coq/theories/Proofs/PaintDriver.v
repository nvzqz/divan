(** The driver model paints exactly the layout of the expected picture (C20):
    every node once, in depth-first order, with the indentation units and the
    glyph its position demands. *)
From DivanV Require Import Base.Res Model.Painter Model.DriverPaint Model.Parse Proofs.Painter.

Fixpoint for_last {A B} (l : list A) (i : nat) (f : nat -> bool -> A -> list B) : list B :=
  match l with
  | [] => []
  | x :: r => f i (match r with [] => true | _ => false end) x ++ for_last r (S i) f
  end.

Lemma last_index : forall A (r : list A) i,
  Nat.eqb i (i + S (length r) - 1) = match r with [] => true | _ => false end.
Proof.
  intros. destruct r; cbn [length].
  - apply PeanoNat.Nat.eqb_eq. lia.
  - apply PeanoNat.Nat.eqb_neq. lia.
Qed.

Lemma for_enum_eq : forall A B (l : list A) (f : nat -> bool -> A -> list B),
  for_enum l f = for_last l 0 f.
Proof.
  intros A B l f. unfold for_enum.
  assert (H : forall l i len, len = i + length l ->
    flat_map (fun ix => f (fst ix) (Nat.eqb (fst ix) (len - 1)) (snd ix)) (enum_from i l) = for_last l i f).
  { induction l0 as [|x r IH]; intros i len Hlen; [reflexivity|].
    cbn [enum_from flat_map for_last fst snd]. cbn [length] in Hlen.
    rewrite (IH (S i) len) by lia. subst len. rewrite last_index. reflexivity. }
  apply H. reflexivity.
Qed.

Definition run_kids (a : action) (l : list node) : list op :=
  for_last l 0 (fun _ last c => run_node a last c).

Lemma run_list_from_eq : forall a l len i, len = i + length l ->
  run_list_from a len i l = for_last l i (fun _ last c => run_node a last c).
Proof.
  induction l as [|c r IH]; intros len i Hlen; [reflexivity|].
  cbn [run_list_from for_last]. cbn [length] in Hlen. rewrite (IH len (S i)) by lia.
  subst len. rewrite last_index. reflexivity.
Qed.

Lemma paint_ops_eq : forall a t, paint_ops a t = run_kids a t.
Proof. intros a [|n r]; [reflexivity|]. apply run_list_from_eq. reflexivity. Qed.

Lemma inner_go_eq : forall a len l i,
  (fix go (i : nat) (l : list node) {struct l} : list op :=
     match l with
     | [] => []
     | c :: r => run_node a (Nat.eqb i (len - 1)) c ++ go (S i) r
     end) i l = run_list_from a len i l.
Proof. induction l as [|c r IH]; intros i; [reflexivity|]. cbn [run_list_from]. rewrite <- IH. reflexivity. Qed.

Lemma run_node_group : forall a l name sc children,
  run_node a l (Group name sc children) =
  [StartParent name l] ++ run_kids a children ++ [FinishParent].
Proof.
  intros. cbn [run_node]. rewrite inner_go_eq, run_list_from_eq by reflexivity. reflexivity.
Qed.

Lemma lay_node_eq : forall fl last n c rows kids,
  lay_node fl last (Pic n c rows kids) =
  LNode fl last n c :: map (LRow fl last) rows ++ lay_kids (fl ++ [negb last]) kids.
Proof.
  intros. cbn [lay_node]. f_equal. f_equal.
  induction kids as [|k r IH]; [reflexivity|]. cbn [lay_kids]. rewrite IH. reflexivity.
Qed.

Definition paints_in (a : action) (fl : list bool) : list op -> list lspec -> Prop :=
  paints (inside a fl) (inside a fl).

Lemma paints_parent : forall a fl name l body specs,
  paints_in a (fl ++ [negb l]) body specs ->
  paints_in a fl ([StartParent name l] ++ body ++ [FinishParent])
            (LNode fl l name (parent_cells a false) :: specs).
Proof.
  intros a fl name l body specs Hb.
  apply (paints_app _ _ _ _ _ [_] _ (start_parent_inner a fl name l)).
  rewrite <- (app_nil_r specs).
  exact (paints_app _ _ _ _ _ _ _ Hb (finish_parent_inner a fl (negb l))).
Qed.

Lemma paints_siblings : forall A a fl (f : nat -> bool -> A -> list op) (g : nat * A -> pic) xs i,
  (forall i last x, In x xs -> paints_in a fl (f i last x) (lay_node fl last (g (i, x)))) ->
  paints_in a fl (for_last xs i f) (lay_kids fl (map g (enum_from i xs))).
Proof.
  intros A a fl f g xs. induction xs as [|x r IH]; intros i H.
  - apply paints_nil.
  - cbn [for_last enum_from map lay_kids].
    replace (match map g (enum_from (S i) r) with [] => true | _ => false end)
      with (match r with [] => true | _ => false end) by (destruct r; reflexivity).
    apply paints_app with (mid := inside a fl); [apply H; left; reflexivity|].
    apply IH. intros j last y Hy. apply H. right. exact Hy.
Qed.

Lemma paints_run : forall a fl name il id arg tc r,
  wf_cells (cells r) ->
  paints_in a fl ([StartLeaf name il] ++ [Invoke id arg tc]
                  ++ (if did_run r && is_bench a then [FinishLeaf il (cells r)] else [FinishEmptyLeaf]))
            (lay_node fl il (pic_run a name r)).
Proof.
  intros a fl name il id arg tc r Hwf. unfold pic_run.
  destruct (did_run r && is_bench a) eqn:E.
  - apply andb_prop in E. destruct E as [_ Ea]. destruct a; try discriminate.
    rewrite lay_node_eq. cbn [lay_kids]. rewrite app_nil_r.
    exact (leaf_stats fl name il [Invoke id arg tc] (cells r) (fun p => eq_refl) Hwf).
  - exact (leaf_empty a fl name il [Invoke id arg tc] (fun p => eq_refl)).
Qed.

Lemma ltb_1_length : forall A (l : list A), l <> [] -> Nat.ltb 1 (length l) = false -> exists x, l = [x].
Proof.
  intros A l Hne H. destruct l as [|x [|y r]]; [congruence | eauto |].
  cbn in H. discriminate.
Qed.

Lemma paints_bench : forall a fl id arg tcs outf name l,
  tcs <> [] -> (forall j, wf_cells (cells (outf j))) ->
  paints_in a fl (run_bench a id arg tcs outf name l) (lay_node fl l (pic_bench a tcs outf name)).
Proof.
  intros a fl id arg tcs outf name l Hne Hwf.
  unfold run_bench, pic_bench. rewrite for_enum_eq.
  destruct (Nat.ltb 1 (length tcs)) eqn:E.
  - rewrite lay_node_eq. cbn [map app].
    apply paints_parent, paints_siblings. intros i last tc _.
    apply (paints_run a _ (thread_name tc) last id arg tc (outf i)), Hwf.
  - destruct (ltb_1_length _ tcs Hne E) as (tc & ->).
    cbn [for_last]. rewrite !app_nil_r. cbn [app].
    exact (paints_run a fl name l id arg tc (outf 0) (Hwf 0)).
Qed.

Lemma paints_entry : forall a fl id name ignored args threads out l,
  (forall i j, wf_cells (cells (out i j))) ->
  paints_in a fl (run_bench_entry a id name ignored args threads out l)
            (lay_node fl l (pic_entry a name ignored args threads out)).
Proof.
  intros a fl id name ignored args threads out l Hwf.
  unfold run_bench_entry, pic_entry.
  destruct ignored.
  { exact (ignore_leaf_line a fl name l). }
  destruct (is_list a) eqn:El.
  { exact (leaf_empty a fl name l [] (fun p => eq_refl)). }
  set (tcs := match threads with [] => [1%N] | _ :: _ => threads end).
  assert (Hne : tcs <> []) by (unfold tcs; destruct threads; congruence).
  destruct args as [names|].
  - rewrite for_enum_eq, lay_node_eq. cbn [map app].
    apply paints_parent, paints_siblings. intros i last an _. apply paints_bench; auto.
  - apply paints_bench; auto.
Qed.

Inductive wf_node : node -> Prop :=
| WfGroup : forall name sc children, Forall wf_node children -> wf_node (Group name sc children)
| WfBench : forall id name sc ignored args threads out,
    (forall i j, wf_cells (cells (out i j))) -> wf_node (Bench id name sc ignored args threads out).

Lemma node_ind2 (P : node -> Prop) :
  (forall name sc children, Forall P children -> P (Group name sc children)) ->
  (forall id name sc ignored args threads out, P (Bench id name sc ignored args threads out)) ->
  forall n, P n.
Proof.
  intros HG HB. fix IH 1. intros [name sc children | id name sc ignored args threads out].
  - apply HG. induction children as [|c r IHr]; constructor; [apply IH | exact IHr].
  - apply HB.
Qed.

Lemma map_snd_enum : forall A B (h : A -> B) l i, map (fun ix => h (snd ix)) (enum_from i l) = map h l.
Proof. induction l as [|x r IH]; intros i; [reflexivity|]. cbn [enum_from map snd]. rewrite IH. reflexivity. Qed.

Lemma paints_kids_of : forall a fl l,
  (forall n, In n l -> forall fl last, paints_in a fl (run_node a last n) (lay_node fl last (pic_node a false n))) ->
  paints_in a fl (run_kids a l) (lay_kids fl (map (pic_node a false) l)).
Proof.
  intros a fl l H. rewrite <- (map_snd_enum _ _ (pic_node a false) l 0).
  apply paints_siblings. intros i last n Hn. apply H, Hn.
Qed.

Lemma paints_node : forall a n fl l,
  wf_node n -> paints_in a fl (run_node a l n) (lay_node fl l (pic_node a false n)).
Proof.
  intros a n. induction n as [name sc children IH | id name sc ignored args threads out] using node_ind2;
    intros fl l Hwf; inversion Hwf; subst.
  - rewrite run_node_group. cbn [pic_node]. rewrite lay_node_eq. cbn [map app].
    apply paints_parent, paints_kids_of. rewrite Forall_forall in *. auto.
  - apply paints_entry; assumption.
Qed.

Lemma paints_top_group : forall a l name sc children,
  Forall wf_node children ->
  paints (at_top a) (at_top a) (run_node a l (Group name sc children))
         (lay_top (pic_node a true (Group name sc children))).
Proof.
  intros a l name sc children Hwf. rewrite run_node_group. cbn [pic_node lay_top].
  apply (paints_app _ _ _ _ _ [_] _ (start_parent_top a name l)).
  apply paints_app with (mid := inside a []); [|apply finish_parent_top].
  apply paints_kids_of. intros c Hc fl last. apply paints_node. rewrite Forall_forall in Hwf. auto.
Qed.

Definition is_group (n : node) : bool := match n with Group _ _ _ => true | _ => false end.

Lemma paints_top_list : forall a t,
  forallb is_group t = true -> Forall wf_node t ->
  paints (at_top a) (at_top a) (run_kids a t) (layout (picture a t)).
Proof.
  intros a t. unfold run_kids. generalize 0.
  induction t as [|n r IH]; intros i Hg Hwf; [apply paints_nil|].
  cbn [forallb] in Hg. apply andb_prop in Hg. destruct Hg as [Hn Hr].
  inversion Hwf as [|? ? Hw1 Hw2]; subst.
  destruct n as [name sc children|]; [|discriminate]. inversion Hw1; subst.
  cbn [for_last picture map layout flat_map].
  apply paints_app with (mid := at_top a); [apply paints_top_group | apply IH]; assumption.
Qed.

Lemma inv_new : forall a t, inv a (painter_new (max_span 0 t) (initial_widths a t)).
Proof.
  intros. unfold inv, painter_new, initial_widths. cbn [widths].
  destruct (is_bench a); [split; [reflexivity | cbn; unfold max_common_column_width; lia] | reflexivity].
Qed.

Theorem paint_layout : forall a t,
  forallb is_group t = true -> Forall wf_node t ->
  exists p out, paint a t = Ok (p, out) /\ depth p = 0 /\ prefix p = [] /\
                lines_shape (layout (picture a t)) out.
Proof.
  intros a t Hg Hwf. unfold paint. rewrite paint_ops_eq.
  destruct (paints_top_list a t Hg Hwf _ (conj (inv_new a t) (conj eq_refl eq_refl)))
    as (p & out & E & (_ & Hd & Hp) & L).
  exists p, out. auto.
Qed.
