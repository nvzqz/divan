(** Non-vacuity: the hypotheses of the theorems of C03 / C04 / C19 are met by
    concrete configurations and histories (closed computations). *)

From DivanV Require Import Base.Res Model.Loop Proofs.LoopProps Proofs.LoopTotal.
Local Open Scope N_scope.

Definition ex_oh0 : overheads := {| oh_loop := 0; oh_alloc := 0; oh_dealloc := 0; oh_realloc := 0 |}.

(** Test mode, explicit size 4, three threads. *)
Definition ex_test_cfg : cfg :=
  {| c_test := true; c_count := Some 5; c_size := Some 4; c_min := 9000; c_max := 1000; c_skip := false;
     c_freq := 1000000000000; c_prec := 1; c_oh := ex_oh0; c_input_counts := {| q_bytes := true; q_chars := false; q_cycles := false; q_items := true |} |}.

Example test_mode_example :
  c_test ex_test_cfg = true /\ zero_case ex_test_cfg = false /\
  exists st, bench_loop ex_test_cfg 0 [[ex_raw 1 2; ex_raw 1 3; ex_raw 0 9]; [ex_raw 5 6]] = Ok (Done st) /\
             s_sizes st = [1] /\ s_store st = store_empty.
Proof. split; [reflexivity|]. split; [reflexivity|]. eexists. split; [vm_compute; reflexivity|]. split; reflexivity. Qed.

(** A zero case (n = 0) in test mode. *)
Example zero_example :
  bench_loop {| c_test := true; c_count := Some 0; c_size := None; c_min := 5; c_max := 7; c_skip := true;
                c_freq := 1; c_prec := 1; c_oh := ex_oh0; c_input_counts := qconst false |} 0 ex_hist
  = Ok (Done (init_state {| c_test := true; c_count := Some 0; c_size := None; c_min := 5; c_max := 7; c_skip := true;
                c_freq := 1; c_prec := 1; c_oh := ex_oh0; c_input_counts := qconst false |})).
Proof. reflexivity. Qed.

(** A time ceiling that binds: n = 5 on two threads would take three rounds,
    max_time = 700 ps is reached by the second round's latest end (720). *)
Definition ex_max_cfg : cfg :=
  {| c_test := false; c_count := Some 5; c_size := Some 3; c_min := 5000; c_max := 700; c_skip := false;
     c_freq := 1000000000000; c_prec := 1; c_oh := ex_oh0; c_input_counts := qconst false |}.

Example max_priority_example :
  c_test ex_max_cfg = false /\ has_samples ex_max_cfg = true /\
  c_max ex_max_cfg <= elapsed_after ex_max_cfg 0 ex_hist 2 /\
  elapsed_after ex_max_cfg 0 ex_hist 2 < c_min ex_max_cfg /\
  counted_after ex_max_cfg ex_hist 2 < sample_count_of ex_max_cfg /\
  exists out, bench_loop ex_max_cfg 0 ex_hist = Ok out /\ rounds_of (out_state out) = 2%nat /\ out_done out = true.
Proof.
  split; [reflexivity|]. split; [reflexivity|]. split; [vm_compute; discriminate|].
  split; [vm_compute; reflexivity|]. split; [vm_compute; reflexivity|].
  eexists. split; [vm_compute; reflexivity|]. split; reflexivity.
Qed.

(** skip_ext_time: three rounds of 300 / 330 / 300 ps count as 1000 ps each. *)
Definition ex_skip_cfg : cfg :=
  {| c_test := false; c_count := Some 1; c_size := Some 3; c_min := 3000; c_max := u128_max; c_skip := true;
     c_freq := 1000000000000; c_prec := 1; c_oh := ex_oh0; c_input_counts := qconst false |}.

Example skip_floor_example :
  elapsed_after ex_skip_cfg 0 ex_hist 3 = 3000 /\
  exists out, bench_loop ex_skip_cfg 0 ex_hist = Ok out /\ rounds_of (out_state out) = 3%nat /\ out_done out = true.
Proof. split; [vm_compute; reflexivity|]. eexists. split; [vm_compute; reflexivity|]. split; reflexivity. Qed.

Lemma ex_tune_uniform : uniform_p 2 ex_tune_hist.
Proof. unfold uniform_p. apply Forall_forall. repeat constructor. Qed.

(** The tuned run of [tune_example] meets the hypotheses of
    [threshold_round_counts] (j0 = 2, t = 2, n = 5: 2 + 3 rounds) and of [loop_total]. *)
Example threshold_round_counts_example :
  c_test ex_tune_cfg = false /\ c_size ex_tune_cfg = None /\ has_samples ex_tune_cfg = true /\
  uniform_p 2 ex_tune_hist /\ first_pass ex_tune_cfg ex_tune_hist = Some 2%nat /\
  (2 + N.to_nat (ceil_div (sample_count_of ex_tune_cfg) 2) <= length ex_tune_hist)%nat /\
  (forall j, (j < 2 + 3)%nat -> elapsed_after ex_tune_cfg 0 ex_tune_hist j < c_max ex_tune_cfg) /\
  c_min ex_tune_cfg <= elapsed_after ex_tune_cfg 0 ex_tune_hist (2 + 3).
Proof.
  split; [reflexivity|]. split; [reflexivity|]. split; [reflexivity|]. split; [exact ex_tune_uniform|].
  split; [destruct tune_example as [out [_ [_ [_ [Hf _]]]]]; exact Hf|].
  split; [apply Nat.leb_le; reflexivity|]. split.
  - intros j Hj. do 5 (destruct j as [|j]; [vm_compute; reflexivity|]).
    do 5 apply Nat.succ_lt_mono in Hj. inversion Hj.
  - vm_compute. discriminate.
Qed.

Example loop_total_example :
  c_test ex_tune_cfg = false /\ c_freq ex_tune_cfg <> 0 /\ (0 < 2 ^ 64) /\
  (forall o, In o ex_tune_hist -> wf_round o) /\ c_prec ex_tune_cfg <> 0 /\ (length ex_tune_hist <= 31)%nat.
Proof.
  split; [reflexivity|]. split; [discriminate|]. split; [reflexivity|]. split.
  - apply Forall_forall. repeat (constructor; [split; [discriminate|apply Forall_forall; repeat constructor]|]).
    constructor.
  - split; [discriminate|]. apply Nat.leb_le. reflexivity.
Qed.
