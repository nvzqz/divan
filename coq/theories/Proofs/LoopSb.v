(** Model/Loop.v: the boolean specifications evaluated by
    the violation search hold of the model's own output, for every history
    ([c04_model_sb], [c03_model_sb], [c03_tuned_model_sb], [c19_model_sb]).
    The specifications are evaluated on the rounds that were run, so the run is
    first restated over that prefix ([bench_loop_prefix]); [c03_sb] and [c19_sb]
    are proved as the propositions they mean (Proofs/LoopMeaning.v). *)

From DivanV Require Import Base.Res Model.Loop Proofs.Loop Proofs.LoopProps Proofs.LoopMeaning Proofs.ListFacts.
Local Open Scope N_scope.

Lemma continue_after_firstn c init hist k j : (j <= k)%nat ->
  continue_after c init (firstn k hist) j = continue_after c init hist j.
Proof. intros H. unfold continue_after. rewrite firstn_firstn, Nat.min_l by exact H. reflexivity. Qed.

Lemma seen_eq t out s : seen_of_outcome t out = Ok s ->
  let st := out_state out in
  exists it, stat_iter_count st = Ok it /\
  s = {| o_done := out_done out; o_sizes := s_sizes st; o_calls := repeat (calls_per_thread st) t;
         o_final_size := s_size st; o_samples := st_samples (s_store st);
         o_alloc_keys := map fst (st_allocs (s_store st)); o_counts := st_counts (s_store st);
         o_stat_samples := stat_sample_count st; o_stat_iters := it |}.
Proof.
  unfold seen_of_outcome. destruct (stat_iter_count (out_state out)) as [it|]; cbn [bind]; [|discriminate].
  intros [= <-]. exists it. split; reflexivity.
Qed.

Lemma bench_loop_prefix c init hist out :
  c_test c = false -> zero_case c = false -> bench_loop c init hist = Ok out ->
  let pre := firstn (rounds_of (out_state out)) hist in
  out_state out = spec_state c init pre /\
  (forall j, (j < length pre)%nat -> continue_after c init pre j = true) /\
  continue_after c init pre (length pre) = negb (out_done out).
Proof.
  intros Ht Hz H. destruct (bench_loop_spec c init hist out Ht Hz H) as [Hk [Hst [Hlt Hend]]].
  cbn zeta. rewrite (firstn_length_le hist Hk). split; [exact Hst|]. split.
  - intros j Hj. rewrite continue_after_firstn by apply Nat.lt_le_incl, Hj. apply Hlt, Hj.
  - rewrite continue_after_firstn by reflexivity. destruct (out_done out); [exact Hend|apply Hend].
Qed.

Theorem c04_model_sb c init hist out t s :
  bench_loop c init hist = Ok out -> seen_of_outcome t out = Ok s ->
  c04_sb c init (firstn (rounds_of (out_state out)) hist) s = true.
Proof.
  intros H Hs. destruct (seen_eq t out s Hs) as [it [_ ->]].
  unfold c04_sb. cbn [o_sizes o_done]. fold (rounds_of (out_state out)).
  rewrite (firstn_length_le hist (rounds_le c init hist out H)) at 1. rewrite Nat.eqb_refl. cbn [andb].
  destruct (zero_case c) eqn:Hz.
  - rewrite (bench_loop_zero c init hist Hz) in H. injection H as <-. reflexivity.
  - destruct (c_test c) eqn:Ht; [reflexivity|].
    destruct (bench_loop_prefix c init hist out Ht Hz H) as [_ [Hlt Hend]].
    apply andb_iff with (1 := forallb_seq _ _ _ (fun j => iff_refl _)) (2 := done_iff _ _). split; assumption.
Qed.

Lemma iter_count_val st v : stat_iter_count st = Ok v ->
  N.of_nat (length (st_samples (s_store st))) < 2 ^ 32 ->
  v = N.of_nat (length (st_samples (s_store st))) * s_size st.
Proof.
  intros H Hm. rewrite (stat_iter_count_small st Hm) in H. unfold checked_mul in H.
  destruct (_ <? _); [|discriminate]. injection H as <-. apply N.mul_comm.
Qed.

Lemma last_sizes_of c hist k :
  last (sizes_of c hist k) 0 = match k with O => 0 | S k' => size_of_round c hist k' end.
Proof. destruct k as [|k']; [reflexivity|]. unfold sizes_of. rewrite seq_S, map_app. apply last_last. Qed.

Theorem c03_model_sb c init hist out t s :
  bench_loop c init hist = Ok out -> out_done out = true ->
  seen_of_outcome t out = Ok s ->
  let pre := firstn (rounds_of (out_state out)) hist in
  uniform_p t pre -> (0 < t)%nat ->
  N.of_nat (length (st_samples (s_store (out_state out)))) < 2 ^ 32 ->
  c03_sb c t init pre s = true.
Proof.
  intros H Hdone Hs pre Hu Htpos Hm. apply c03_sb_meaning. unfold c03_holds. cbv zeta.
  destruct (seen_eq t out s Hs) as [it [Hsi ->]].
  cbn [o_calls o_sizes o_samples o_final_size o_stat_samples o_stat_iters].
  rewrite (iter_count_val _ _ Hsi Hm), (stat_sample_count_small _ Hm). clear Hsi it Hs.
  assert (Hlen : length pre = rounds_of (out_state out)) by apply firstn_length_le, (rounds_le c init hist out H).
  split; [apply repeat_length|]. split; [symmetry; exact Hlen|]. split; [exact Hu|].
  destruct (zero_case c) eqn:Hz; [|destruct (c_test c) eqn:Ht].
  - rewrite (bench_loop_zero c init hist Hz) in H. injection H as <-.
    repeat split; try reflexivity. apply repeat_spec.
  - (* test mode, returned: exactly one round *)
    rewrite (bench_loop_test c init hist Ht Hz) in H.
    destruct hist as [|[|r0 o0] rest]; [injection H as <-; discriminate Hdone|discriminate H|injection H as <-].
    unfold init_state, initial_mode. rewrite Ht. repeat split; try reflexivity. apply repeat_spec.
  - destruct (bench_loop_prefix c init hist out Ht Hz H) as [Hst [Hlt Hend]]. fold pre in Hst, Hlt, Hend.
    rewrite Hdone in Hend. rewrite Hst in *. clear Hst. cbn [spec_state s_sizes s_size s_store] in *.
    rewrite last_sizes_of. split; [reflexivity|]. split; [reflexivity|]. split; [reflexivity|]. split; [reflexivity|].
    destruct (c_size c) as [sz|] eqn:Es; [|exact I].
    destruct (explicit_sizes c init pre sz Ht Es) as [Hsizes [Hcalls Hsize]].
    cbn [spec_state s_sizes s_size] in Hsizes, Hcalls, Hsize. rewrite Hsizes, Hcalls, Hsize.
    assert (Hst : start_of c pre = Some O) by (unfold start_of; rewrite Es; reflexivity).
    split; [apply repeat_spec|]. split; [apply repeat_spec|].
    split; [rewrite (samples_uniform c t pre O Ht Hu Hst), Nat.sub_0_r; apply Nat2N.inj_mul|].
    split; [reflexivity|]. intros _.
    assert (Hn : sample_count_of c <> 0) by (apply has_samples_count, zero_case_false, Hz).
    destruct (uniform_stop c t init pre O Ht Htpos Hu Hst Hn Hlt Hend) as [Hfew Hmany].
    set (r := ceil_div (sample_count_of c) (N.of_nat t)) in *. rewrite Nat.add_0_l in Hfew, Hmany.
    split.
    + intros Hk. apply Hfew, lt_to_nat, Hk.
    + intros Hk Hb. rewrite Hmany; [apply N2Nat.id|apply le_to_nat, Hk|exact Hb].
Qed.

Theorem c03_tuned_model_sb c init hist out t s :
  c_test c = false ->
  bench_loop c init hist = Ok out -> out_done out = true ->
  seen_of_outcome t out = Ok s -> (0 < t)%nat ->
  c03_tuned_sb c t init (firstn (rounds_of (out_state out)) hist) s = true.
Proof.
  intros _ H Hdone Hs Htpos. unfold c03_tuned_sb. cbv zeta.
  destruct (zero_case c) eqn:Hz; [reflexivity|].
  destruct (tuned c) eqn:Htu; [|reflexivity]. destruct (tuned_inv c Htu) as [Ht Es].
  destruct (bench_loop_prefix c init hist out Ht Hz H) as [Hst [Hlt Hend]]. rewrite Hdone in Hend.
  set (pre := firstn (rounds_of (out_state out)) hist) in *.
  destruct (uniform t pre) eqn:Hu; [|reflexivity]. apply uniform_spec in Hu.
  destruct (first_pass c pre) as [j0|] eqn:Ef; [|reflexivity]. cbn [orb negb].
  assert (Hj0 : start_of c pre = Some j0) by (unfold start_of; rewrite Es; exact Ef).
  assert (Hn : sample_count_of c <> 0) by (apply has_samples_count, zero_case_false, Hz).
  destruct (uniform_stop c t init pre j0 Ht Htpos Hu Hj0 Hn Hlt Hend) as [Hfew Hmany].
  destruct (forallb _ _); [|reflexivity].
  destruct (Nat.ltb_spec (length pre) (j0 + N.to_nat (ceil_div (sample_count_of c) (N.of_nat t)))) as [Hk|Hk].
  - apply N.leb_le, Hfew, Hk.
  - destruct (_ || _) eqn:Hb; [|reflexivity].
    apply (orb_iff _ _ _ _ (N.leb_le _ _) (N.leb_le _ _)), (Hmany Hk) in Hb.
    rewrite Hb at 1. rewrite Nat.eqb_refl. apply N.eqb_eq.
    destruct (seen_eq t out s Hs) as [it [_ ->]]. cbn [o_samples]. rewrite Hst. cbn [spec_state s_store].
    rewrite (samples_uniform c t pre j0 Ht Hu Hj0), Hb, (Nat.add_sub_eq_l _ j0 _ eq_refl), Nat2N.inj_mul, N2Nat.id.
    reflexivity.
Qed.

Lemma filter_keys_id (k : N) (m : list (N * alloc_info)) :
  (forall x, In x (map fst m) -> x < k) -> filter (fun p => negb (fst p =? k)) m = m.
Proof.
  intros H. apply filter_all. intros p Hp. apply Bool.negb_true_iff, N.eqb_neq, N.lt_neq, H, in_map, Hp.
Qed.

(** The keys of the allocation map are exactly the indices of the recorded
    samples that came with allocation info (fewer than 2^32 samples). *)
Lemma alloc_keys_exact c size l : forall sto,
  (forall k, In k (map fst (st_allocs sto)) -> k < N.of_nat (length (st_samples sto))) ->
  N.of_nat (length (st_samples sto)) + N.of_nat (length l) < 2 ^ 32 ->
  map fst (st_allocs (fold_left (record_one c size) l sto)) =
  map fst (st_allocs sto) ++ alloc_keys_from (N.of_nat (length (st_samples sto))) (map fst l).
Proof.
  induction l as [|[r d] l IH]; intros sto Hinv Hb; cbn [fold_left map alloc_keys_from fst].
  - rewrite app_nil_r. reflexivity.
  - cbn [length] in Hb.
    set (len := N.of_nat (length (st_samples sto))) in *.
    assert (Hlen' : N.of_nat (length (st_samples (record_one c size sto (r, d)))) = len + 1).
    { cbn [record_one st_samples]. rewrite app_length, Nat2N.inj_add. reflexivity. }
    assert (Hkeys : map fst (st_allocs (record_one c size sto (r, d))) =
                    map fst (st_allocs sto) ++ (if ai_is_empty (r_alloc r) then [] else [len])).
    { cbn [record_one st_allocs]. fold len. destruct (ai_is_empty (r_alloc r)); [symmetry; apply app_nil_r|].
      rewrite N.mod_small by apply (N.le_lt_trans _ _ _ (N.le_add_r _ _) Hb). unfold map_insert. rewrite (filter_keys_id len _ Hinv). apply map_app. }
    rewrite IH, Hlen', Hkeys; [apply eq_sym, app_assoc| |].
    + intros k Hk. rewrite Hlen'. rewrite Hkeys in Hk. apply in_app_or in Hk. destruct Hk as [Hk|Hk].
      * apply N.lt_lt_add_r, Hinv, Hk.
      * destruct (ai_is_empty (r_alloc r)); [destruct Hk|]. destruct Hk as [<-|[]]. apply N.lt_add_pos_r. reflexivity.
    + rewrite Hlen'. rewrite Nat2N.inj_succ, <- N.add_1_l, N.add_assoc in Hb. exact Hb.
Qed.

Lemma map_fst_with_dur c l : map fst (with_dur c l) = l.
Proof. unfold with_dur. rewrite map_map. apply map_id. Qed.

Lemma c19_model_holds c init hist out t s :
  bench_loop c init hist = Ok out ->
  seen_of_outcome t out = Ok s ->
  N.of_nat (length (st_samples (s_store (out_state out)))) < 2 ^ 32 ->
  c19_holds c init (firstn (rounds_of (out_state out)) hist) s.
Proof.
  intros H Hs Hm Hz Htu.
  destruct (tuned_inv c Htu) as [Ht _].
  destruct (seen_eq t out s Hs) as [it [Hsi ->]].
  cbn [o_done o_sizes o_samples o_final_size o_alloc_keys o_counts o_stat_samples o_stat_iters].
  rewrite (iter_count_val _ _ Hsi Hm), (stat_sample_count_small _ Hm). clear Hsi it Hs.
  destruct (bench_loop_prefix c init hist out Ht Hz H) as [Hst [Hlt Hend]].
  set (pre := firstn (rounds_of (out_state out)) hist) in *. rewrite Hst in *. clear Hst.
  cbn [spec_state s_sizes s_size s_store] in *.
  assert (Hsam : st_samples (store_of c pre) =
                 map (fun r => sample_duration c (last_size c pre) r (dur_of c r)) (concat (kept_of c pre)))
    by (rewrite (store_of_last_size c pre Ht); apply record_one_samples).
  repeat split; try assumption.
  - rewrite Hsam, map_length. symmetry. apply total_len_concat.
  - unfold expected_samples. rewrite flat_map_concat_map, <- concat_map. exact Hsam.
  - intros kd. rewrite (store_of_last_size c pre Ht), record_one_counts. destruct kd; reflexivity.
  - unfold store_of. rewrite alloc_keys_exact, map_fst_with_dur; [reflexivity|intros k []|].
    rewrite length_with_dur, <- store_of_samples_len. exact Hm.
Qed.

Theorem c19_model_sb c init hist out t s :
  c_test c = false ->
  bench_loop c init hist = Ok out ->
  seen_of_outcome t out = Ok s ->
  N.of_nat (length (st_samples (s_store (out_state out)))) < 2 ^ 32 ->
  c19_sb c init (firstn (rounds_of (out_state out)) hist) s = true.
Proof. intros _ H Hs Hm. apply c19_sb_meaning. exact (c19_model_holds c init hist out t s H Hs Hm). Qed.

Theorem c19_e2e_model c init hist out t s :
  c_test c = false ->
  bench_loop c init hist = Ok out -> out_done out = true ->
  seen_of_outcome t out = Ok s ->
  N.of_nat (length (st_samples (s_store (out_state out)))) < 2 ^ 32 ->
  c19_e2e_sb c init (firstn (rounds_of (out_state out)) hist) (o_sizes s) (o_stat_samples s) (o_stat_iters s) = true.
Proof.
  intros _ H Hdone Hs Hm. pose proof (c19_model_holds c init hist out t s H Hs Hm) as Hsb.
  unfold c19_e2e_sb. cbv zeta.
  destruct (zero_case c) eqn:Hz; [reflexivity|]. destruct (tuned c) eqn:Htu; [|reflexivity]. cbn [orb negb].
  destruct (Hsb Hz Htu) as [Hsz [Hlen [_ [Hfin [_ [_ [Hlt [Hend [Hss Hsi]]]]]]]]]. clear Hsb.
  destruct (seen_eq t out s Hs) as [it [_ Es]]. rewrite Es in Hend. cbn [o_done] in Hend. rewrite Hdone in Hend.
  rewrite Hss, Hsi, Hlen, Hfin, Hsz, last_sizes_of, !N.eqb_refl.
  set (pre := firstn _ hist) in *.
  rewrite (proj2 (list_eqb_spec _ _) eq_refl), Hend.
  rewrite (proj2 (forallb_seq (fun j => continue_after c init pre j) _ _ (fun j => iff_refl _)) Hlt). reflexivity.
Qed.

Theorem c03_e2e_model c init hist out s t sn :
  c_test c = false -> zero_case c = false -> c_size c = Some s ->
  (0 < t)%nat -> uniform_p t hist ->
  let n := sample_count_of c in
  let r := N.to_nat (ceil_div n (N.of_nat t)) in
  (r <= length hist)%nat ->
  (forall j, (j < r)%nat -> elapsed_after c init hist j < c_max c) ->
  c_min c <= elapsed_after c init hist r ->
  bench_loop c init hist = Ok out -> seen_of_outcome t out = Ok sn ->
  N.of_nat (t * r) < 2 ^ 32 ->
  c03_e2e_sb (c_count c) s (N.of_nat t) false (o_stat_samples sn) (o_stat_iters sn) (o_calls sn) = true.
Proof.
  intros Ht Hz Hs Htpos Hu n r Hr Hmax Hmin H Hsn Hb.
  destruct (exact_counts c init hist out s t Ht Hz Hs Htpos Hu Hr Hmax Hmin H) as [_ [_ [Hlen [_ [Hcalls Hsize]]]]].
  fold n r in Hlen, Hcalls, Hsize.
  destruct (seen_eq t out sn Hsn) as [it [Hsi ->]]. cbn [o_stat_samples o_stat_iters o_calls].
  rewrite <- Hlen in Hb.
  rewrite (iter_count_val _ _ Hsi Hb), (stat_sample_count_small _ Hb), Hcalls, Hsize, Hlen. clear Hcalls Hsize Hlen Hsi Hb Hsn.
  apply zero_case_false in Hz. destruct Hz as [_ Hh].
  pose proof (rounds_wanted_pos c t Htpos (has_samples_count c Hh)) as Hr1. fold n r in Hr1.
  unfold c03_e2e_sb. fold (sample_count_of c). fold n.
  rewrite repeat_length, N.eqb_refl, (proj2 (N.eqb_neq n 0) (has_samples_count c Hh)),
    (proj2 (N.eqb_neq s 0) (has_samples_size c s Hh Hs)). cbn [andb orb].
  replace (ceil_div n (N.of_nat t)) with (N.of_nat r) by apply N2Nat.id.
  destruct r; [inversion Hr1|]. cbn [Nat.eqb]. rewrite Nat2N.inj_mul, !N.eqb_refl. apply all_eq_spec, repeat_spec.
Qed.
