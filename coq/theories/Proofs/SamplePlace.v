(** Placement of samples on threads (Model/Sample.v, [run_events], [thread_log]). *)

From DivanV Require Import Base.Res Model.Sample Proofs.Sample.
Local Open Scope nat_scope.

Lemma run_events_in c t rd a :
  In (t, rd, a) (run_events c) <->
  rd < rounds c /\ t <= eff_aux c /\
  In a (sample_prog (r_entry c) (r_shape c) (eff_size c) (r_cs c) (r_udrop c)).
Proof.
  unfold run_events. rewrite in_flat_map. split.
  - intros (rd' & Hrd & H). apply in_flat_map in H. destruct H as (t' & Ht & H).
    apply in_map_iff in H. destruct H as (a' & Heq & Ha). inversion Heq; subst.
    apply in_seq in Hrd. apply in_seq in Ht. repeat split; [lia|lia|exact Ha].
  - intros (Hrd & Ht & Ha). exists rd. split; [apply in_seq; lia|].
    apply in_flat_map. exists t. split; [apply in_seq; lia|].
    apply in_map_iff. exists a. split; [reflexivity|exact Ha].
Qed.

Lemma run_threads_bound c t : In t (run_threads c) -> t <= eff_aux c.
Proof.
  unfold run_threads. intros H. apply in_map_iff in H. destruct H as ([[t' rd] a] & Heq & H).
  cbn in Heq. subst. apply run_events_in in H. tauto.
Qed.

(** The [_local] entry points run everything on the calling thread (thread 0),
    whatever thread count is configured. *)
Lemma local_on_caller c :
  is_local (r_entry c) = true -> forall t, In t (run_threads c) -> t = 0.
Proof.
  intros Hl t Ht. apply run_threads_bound in Ht. unfold eff_aux in Ht. rewrite Hl in Ht. lia.
Qed.

(** Every thread up to [eff_aux c] (every configured thread, unless the entry
    point is a [_local] one) takes part in every round. *)
Lemma threads_take_part c t rd :
  rd < rounds c -> t <= eff_aux c ->
  forall a, In a (sample_prog (r_entry c) (r_shape c) (eff_size c) (r_cs c) (r_udrop c)) ->
  In (t, rd, a) (run_events c).
Proof. intros Hrd Ht a Ha. apply run_events_in. tauto. Qed.

Lemma eff_aux_nonlocal c : is_local (r_entry c) = false -> eff_aux c = r_aux c.
Proof. unfold eff_aux. intros ->. reflexivity. Qed.

Definition ids_all (P : nat -> Prop) (e : oev nat) : Prop :=
  match e with
  | OGen i | OCount _ i | OUDropIn i | ODropOut i | ODropIn i | OCallPanic i => P i
  | OCall i o => P i /\ P o
  | _ => True
  end.

Definition ids_below (n : nat) (l : list (oev nat)) : Prop :=
  Forall (ids_all (fun i => i < n)) l.

Lemma obs1_ids v a n :
  (forall i, act_index a = Some i -> i < n) -> Forall (ids_all (fun i => i < n)) (obs1 v a).
Proof.
  intros H. destruct a; cbn in *;
    try match goal with |- context [if ?b then _ else _] => destruct b end;
    repeat constructor; apply H; reflexivity.
Qed.

Lemma sample_core_indices p sh cs r u n :
  Forall (fun a => forall i, act_index a = Some i -> i < n) (sample_core p sh cs r u n).
Proof.
  assert (H : forall k a, in_loop k n a -> forall i, act_index a = Some i -> i < n).
  { intros k a [_ H]%in_loop_inv i Hi. rewrite Hi in H. exact H. }
  unfold sample_core. repeat (apply Forall_app; split); try (repeat constructor; discriminate).
  - eapply Forall_impl; [apply H|apply gen_phase_acts].
  - eapply Forall_impl; [apply H|apply call_phase_acts].
  - eapply Forall_impl; [apply H|apply drop_phase_acts].
Qed.

Lemma ids_below_sample e sh n cs u multi :
  ids_below n (obs (vis_of e sh multi) (sample_prog e sh n cs u)).
Proof.
  eapply obs_Forall; [|apply sample_core_indices]. intros a. apply obs1_ids.
Qed.

Lemma gid_thread t base i :
  (N.of_nat (base + i) < 4294967296)%N -> (gid t base i / 4294967296 = N.of_nat t)%N.
Proof.
  intros H. unfold gid. rewrite N.div_add_l by discriminate.
  rewrite N.div_small by exact H. apply N.add_0_r.
Qed.

(** Every identifier in the log of thread [t] was made on thread [t]: a value
    is generated, counted, consumed and dropped on one and the same thread. *)
Lemma thread_affine c t :
  (N.of_nat (rounds c * eff_size c) < 4294967296)%N ->
  Forall (fun e => ev_thread_ok t e = true) (thread_log c t).
Proof.
  intros Hb. unfold thread_log. apply Forall_app. split.
  - destruct (Nat.eqb t 0 && negb (Nat.eqb (rounds c) 0)); repeat constructor.
  - apply Forall_forall. intros e He. apply in_flat_map in He. destruct He as (rd & Hrd & He).
    apply in_seq in Hrd. apply in_map_iff in He. destruct He as (e0 & <- & He0).
    pose proof (ids_below_sample (r_entry c) (r_shape c) (eff_size c) (r_cs c) (r_udrop c)
                  (negb (Nat.eqb (eff_aux c) 0))) as Hids.
    unfold ids_below in Hids. rewrite Forall_forall in Hids. specialize (Hids e0 He0).
    assert (Hg : forall i, i < eff_size c ->
                 (gid t (rd * eff_size c) i / 4294967296 =? N.of_nat t)%N = true).
    { intros i Hi. apply N.eqb_eq. apply gid_thread.
      assert (rd * eff_size c + i < rounds c * eff_size c) by nia. lia. }
    destruct e0; cbn in *; try reflexivity; try (rewrite Hg by exact Hids; reflexivity).
    destruct Hids as [H1 H2]. rewrite !Hg by assumption. reflexivity.
Qed.

(** The hypotheses above are satisfiable by non-trivial configurations. *)
Definition example_cfg : rcfg :=
  mkR ELocalRefs (mkShape false true false true) (mkCs true false false true) true 17 7 4 false.

Example local_on_caller_example :
  is_local (r_entry example_cfg) = true /\ run_threads example_cfg <> [] /\ r_aux example_cfg = 4.
Proof. repeat split. discriminate. Qed.

Example thread_affine_example :
  (N.of_nat (rounds example_cfg * eff_size example_cfg) < 4294967296)%N /\ rounds example_cfg = 7.
Proof. split; reflexivity. Qed.
