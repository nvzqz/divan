(** The recording step of C10.  The invariant [rinv P s]: when [P] are the
    snapshots recorded since the last clear, [s] holds [length P] samples and
    key [j] is bound to [P]'s [j]-th snapshot iff that is non-empty
    ([lookup_spec]).  The guard makes [as u32] the identity on every index. *)
From DivanV Require Import Base.Res Model.Tally Model.Record Proofs.Tally Proofs.ListFacts.
Local Open Scope N_scope.

Arguments N.of_nat : simpl never.

Lemma get_filter k k' m :
  map_get k (filter (fun kv => negb (fst kv =? k')) m) = if k =? k' then None else map_get k m.
Proof.
  induction m as [|[a v] m IH]; cbn [filter map_get fst].
  - destruct (k =? k'); reflexivity.
  - destruct (a =? k') eqn:E1; cbn [negb map_get].
    + rewrite IH. apply N.eqb_eq in E1. subst a. rewrite (N.eqb_sym k' k).
      destruct (k =? k'); reflexivity.
    + rewrite IH. destruct (a =? k) eqn:E2; [|reflexivity].
      apply N.eqb_eq in E2. subst a. rewrite E1. reflexivity.
Qed.

Lemma get_insert k k' v m :
  map_get k (map_insert k' v m) = if k' =? k then Some v else map_get k m.
Proof.
  unfold map_insert. cbn [map_get]. destruct (k' =? k) eqn:E; [reflexivity|].
  rewrite get_filter. rewrite (N.eqb_sym k k'), E. reflexivity.
Qed.

Lemma existsb_key k (m : list (N * info)) :
  existsb (fun kv => fst kv =? k) m = match map_get k m with Some _ => true | None => false end.
Proof.
  induction m as [|[a v] m IH]; [reflexivity|].
  cbn [existsb map_get fst]. destruct (a =? k); [reflexivity|exact IH].
Qed.

Lemma existsb_filter_key k k' (m : list (N * info)) :
  existsb (fun kv => fst kv =? k) (filter (fun kv => negb (fst kv =? k')) m)
  = negb (k =? k') && existsb (fun kv => fst kv =? k) m.
Proof. rewrite !existsb_key, get_filter. destruct (k =? k'); reflexivity. Qed.

Lemma keys_distinct_filter k' m :
  keys_distinct m = true -> keys_distinct (filter (fun kv => negb (fst kv =? k')) m) = true.
Proof.
  induction m as [|[a v] m IH]; intros H; cbn [filter keys_distinct fst] in *; [reflexivity|].
  apply andb_prop in H. destruct H as [H1 H2].
  destruct (a =? k'); cbn [negb keys_distinct]; [apply IH; exact H2|].
  rewrite existsb_filter_key. rewrite IH by exact H2.
  destruct (existsb (fun kv => fst kv =? a) m); [discriminate H1|].
  rewrite andb_false_r. reflexivity.
Qed.

Lemma keys_distinct_insert k v m :
  keys_distinct m = true -> keys_distinct (map_insert k v m) = true.
Proof.
  intros H. unfold map_insert. cbn [keys_distinct]. rewrite existsb_filter_key, N.eqb_refl. cbn [negb andb].
  apply keys_distinct_filter. exact H.
Qed.

Lemma key_in_get k v m : In (k, v) m -> map_get k m <> None.
Proof.
  intros H E. assert (X : existsb (fun kv => fst kv =? k) m = true)
    by (apply existsb_exists; exists (k, v); split; [exact H|apply N.eqb_refl]).
  rewrite existsb_key, E in X. discriminate X.
Qed.

Definition lookup_spec (P : list info) (k : N) : option info :=
  if k <? N.of_nat (length P) then expected_record P (N.to_nat k) else None.

Lemma lookup_spec_lt P j : (j < length P)%nat -> lookup_spec P (N.of_nat j) = expected_record P j.
Proof.
  intros H. unfold lookup_spec. replace (_ <? _) with true by lia. rewrite Nat2N.id. reflexivity.
Qed.

Lemma lookup_spec_ge P k : N.of_nat (length P) <= k -> lookup_spec P k = None.
Proof. intros H. unfold lookup_spec. apply N.ltb_ge in H. rewrite H. reflexivity. Qed.

Lemma lookup_spec_snoc P x k :
  lookup_spec (P ++ [x]) k =
  if k =? N.of_nat (length P) then (if tallies_empty x then None else Some x) else lookup_spec P k.
Proof.
  destruct (k =? N.of_nat (length P)) eqn:E.
  - apply N.eqb_eq in E. subst k. rewrite lookup_spec_lt by (rewrite app_length; cbn; lia).
    unfold expected_record. rewrite nth_error_app2, Nat.sub_diag by lia. reflexivity.
  - apply N.eqb_neq in E. unfold lookup_spec. rewrite app_length. cbn [length].
    destruct (k <? N.of_nat (length P)) eqn:E1.
    + replace (k <? _) with true by lia.
      unfold expected_record. rewrite nth_error_app1 by lia. reflexivity.
    + replace (k <? _) with false by lia. reflexivity.
Qed.

Record rinv (P : list info) (s : samples) : Prop := {
  r_len : s_len s = N.of_nat (length P);
  r_get : forall k, map_get k (s_map s) = lookup_spec P k;
  r_keys : keys_distinct (s_map s) = true
}.

Lemma rinv_empty : rinv [] samples_empty.
Proof. constructor; try reflexivity. intros k. symmetry. apply lookup_spec_ge, N.le_0_l. Qed.

Lemma as_u32_small x : x < 4294967296 -> as_u32 x = x.
Proof. intros H. unfold as_u32. apply N.mod_small. exact H. Qed.

Lemma record_sample_rinv P s x :
  rinv P s -> N.of_nat (length P) < 4294967296 -> rinv (P ++ [x]) (record_sample s x).
Proof.
  intros [Hl Hg Hk] Hb. unfold record_sample. rewrite Hl, as_u32_small by exact Hb.
  assert (Hlen : N.of_nat (length P) + 1 = N.of_nat (length (P ++ [x])))
    by (rewrite app_length; cbn [length]; lia).
  destruct (tallies_empty x) eqn:Ex; cbn [negb]; constructor; cbn [s_len s_map];
    try exact Hlen; intros; rewrite ?lookup_spec_snoc, ?Ex.
  - rewrite Hg. destruct (k =? N.of_nat (length P)) eqn:E; [|reflexivity].
    apply N.eqb_eq in E. subst k. apply lookup_spec_ge, N.le_refl.
  - exact Hk.
  - rewrite get_insert, Hg, (N.eqb_sym k). reflexivity.
  - apply keys_distinct_insert, Hk.
Qed.

Lemma record_round_rinv L : forall P s,
  rinv P s -> N.of_nat (length (P ++ L)) <= 4294967296 -> rinv (P ++ L) (record_round s L).
Proof.
  induction L as [|x L IH]; intros P s H Hb.
  - rewrite app_nil_r. exact H.
  - unfold record_round. cbn [fold_left]. fold (record_round (record_sample s x) L).
    replace (P ++ x :: L) with ((P ++ [x]) ++ L) in * by (rewrite <- app_assoc; reflexivity).
    apply IH; [|exact Hb]. apply record_sample_rinv; [exact H|].
    rewrite !app_length in Hb. cbn [length] in Hb. lia.
Qed.

Lemma rec_run_inv_gen ops : forall acc s,
  rinv (concat acc) s ->
  N.of_nat (length (concat acc)) + total_snaps ops <= 4294967296 ->
  rinv (concat (kept_from ops acc)) (fold_left rec_step ops s).
Proof.
  induction ops as [|[snaps|] ops IH]; intros acc s H Hb.
  - exact H.
  - cbn [fold_left kept_from rec_step total_snaps] in *. apply IH.
    + rewrite concat_app. cbn [concat]. rewrite app_nil_r. apply record_round_rinv; [exact H|].
      rewrite app_length. lia.
    + rewrite concat_app. cbn [concat]. rewrite app_nil_r, app_length. lia.
  - cbn [fold_left kept_from rec_step total_snaps] in *. apply IH.
    + exact rinv_empty.
    + cbn [concat length]. lia.
Qed.

Lemma rec_run_inv ops :
  record_guard ops = true -> rinv (concat (kept_rounds ops)) (rec_run ops).
Proof.
  intros H. unfold record_guard in H. apply N.leb_le in H.
  apply (rec_run_inv_gen ops [] samples_empty); [exact rinv_empty|]. cbn [concat length]. lia.
Qed.

Lemma flat_index_nth (RS : list (list info)) : forall i t round snap,
  nth_error RS i = Some round -> nth_error round t = Some snap ->
  nth_error (concat RS) (flat_index RS i t) = Some snap.
Proof.
  induction RS as [|r0 RS IH]; intros [|i] t round snap Hr Hs; cbn in Hr; try discriminate.
  - inversion Hr. subst r0. unfold flat_index. cbn [firstn concat length Nat.add].
    rewrite nth_error_app1; [exact Hs|]. apply nth_error_Some. rewrite Hs. discriminate.
  - unfold flat_index. cbn [firstn concat]. rewrite app_length.
    rewrite nth_error_app2 by lia.
    replace (length r0 + length (concat (firstn i RS)) + t - length r0)%nat with (flat_index RS i t)
      by (unfold flat_index; lia).
    apply (IH i t round snap Hr Hs).
Qed.

Lemma prefix_len_mono (RS : list (list info)) a b :
  (a <= b)%nat -> (length (concat (firstn a RS)) <= length (concat (firstn b RS)))%nat.
Proof.
  intros H. rewrite <- (firstn_skipn a (firstn b RS)), firstn_firstn, Nat.min_l by exact H.
  rewrite concat_app, app_length. lia.
Qed.

Lemma flat_index_lt (RS : list (list info)) i i' t t' round :
  nth_error RS i = Some round -> (t < length round)%nat -> (i < i')%nat ->
  (flat_index RS i t < flat_index RS i' t')%nat.
Proof.
  intros Hr Ht Hi. unfold flat_index.
  pose proof (prefix_len_mono RS (S i) i' Hi) as M.
  rewrite (firstn_S_snoc RS i round Hr), concat_app, app_length in M.
  cbn [concat] in M. rewrite app_nil_r in M. lia.
Qed.

Theorem flat_index_injective (RS : list (list info)) i t round i' t' round' :
  nth_error RS i = Some round -> (t < length round)%nat ->
  nth_error RS i' = Some round' -> (t' < length round')%nat ->
  flat_index RS i t = flat_index RS i' t' -> i = i' /\ t = t'.
Proof.
  intros Hr Ht Hr' Ht' E.
  destruct (Nat.lt_trichotomy i i') as [L|[L|L]].
  - pose proof (flat_index_lt RS i i' t t' round Hr Ht L). lia.
  - subst i'. unfold flat_index in E. split; [reflexivity|lia].
  - pose proof (flat_index_lt RS i' i t' t round' Hr' Ht' L). lia.
Qed.

Theorem record_exact ops :
  record_guard ops = true ->
  s_len (rec_run ops) = N.of_nat (length (concat (kept_rounds ops))) /\
  (forall i t round snap,
      nth_error (kept_rounds ops) i = Some round -> nth_error round t = Some snap ->
      map_get (N.of_nat (flat_index (kept_rounds ops) i t)) (s_map (rec_run ops))
      = if tallies_empty snap then None else Some snap) /\
  (forall k, N.of_nat (length (concat (kept_rounds ops))) <= k -> map_get k (s_map (rec_run ops)) = None) /\
  keys_distinct (s_map (rec_run ops)) = true.
Proof.
  intros H. destruct (rec_run_inv ops H) as [Hl Hg Hk]. split; [exact Hl|]. split; [|split; [|exact Hk]].
  - intros i t round snap Hr Hs. pose proof (flat_index_nth _ i t round snap Hr Hs) as Hn.
    rewrite Hg, lookup_spec_lt by (apply nth_error_Some; rewrite Hn; discriminate).
    unfold expected_record. rewrite Hn. reflexivity.
  - intros k Hk'. rewrite Hg. apply lookup_spec_ge, Hk'.
Qed.

Theorem clear_forgets pre post : rec_run (pre ++ RClear :: post) = rec_run post.
Proof. unfold rec_run. rewrite fold_left_app. reflexivity. Qed.

Lemma kept_from_clear pre post : forall acc, kept_from (pre ++ RClear :: post) acc = kept_from post [].
Proof.
  induction pre as [|[s|] pre IH]; intros acc; cbn [app kept_from].
  - reflexivity.
  - apply IH.
  - apply IH.
Qed.

Theorem kept_after_clear pre post : kept_rounds (pre ++ RClear :: post) = kept_rounds post.
Proof. apply kept_from_clear. Qed.

Lemma tally_eqb_self_spec a b : tally_eqb a (t_count b) (t_size b) = true <-> a = b.
Proof. rewrite tally_eqb_spec. destruct b; reflexivity. Qed.

Lemma info_eqb_spec a b : info_eqb a b = true <-> a = b.
Proof.
  split.
  - unfold info_eqb.
    intros [[[[[[[Hg%tally_eqb_self_spec Hs%tally_eqb_self_spec]%andb_prop Ha%tally_eqb_self_spec]%andb_prop
      Hd%tally_eqb_self_spec]%andb_prop Hcc%Z.eqb_eq]%andb_prop Hmc%Z.eqb_eq]%andb_prop
      Hcs%Z.eqb_eq]%andb_prop Hms%Z.eqb_eq]%andb_prop.
    destruct a, b. cbn in *. congruence.
  - intros <-. unfold info_eqb.
    rewrite !(proj2 (tally_eqb_self_spec _ _) eq_refl), !Z.eqb_refl. reflexivity.
Qed.

Lemma opt_info_eqb_spec a b : opt_info_eqb a b = true <-> a = b.
Proof.
  destruct a as [x|], b as [y|]; cbn [opt_info_eqb]; try (split; discriminate).
  - rewrite info_eqb_spec. split; [intros ->; reflexivity|intros E; injection E as ->; reflexivity].
  - split; reflexivity.
Qed.

Theorem record_sb_meaning ops len recs :
  record_sb ops len recs = true <->
  (record_guard ops = true ->
   len = N.of_nat (length (concat (kept_rounds ops))) /\
   (forall j, (j < length (concat (kept_rounds ops)))%nat ->
              map_get (N.of_nat j) recs = expected_record (concat (kept_rounds ops)) j) /\
   (forall kv, In kv recs -> fst kv < N.of_nat (length (concat (kept_rounds ops)))) /\
   keys_distinct recs = true).
Proof.
  unfold record_sb. apply guarded_true_iff. intros _.
  unfold record_sb_clauses. cbn [forallb fst]. split.
  - intros [H1%N.eqb_eq [H2 [H3 [H4 _]%andb_prop]%andb_prop]%andb_prop]%andb_prop.
    rewrite forallb_forall in H2, H3. split; [exact H1|]. split; [|split; [|exact H4]].
    + intros j Hj. apply opt_info_eqb_spec, H2, in_seq. lia.
    + intros kv Hin. apply N.ltb_lt, H3, Hin.
  - intros (-> & H2 & H3 & ->). rewrite N.eqb_refl, andb_true_r. cbn [andb].
    apply andb_true_intro. split; apply forallb_forall.
    + intros j Hj%in_seq. apply opt_info_eqb_spec, H2. lia.
    + intros kv Hin. apply N.ltb_lt, H3, Hin.
Qed.

Theorem record_model_sb ops : record_sb ops (s_len (rec_run ops)) (s_map (rec_run ops)) = true.
Proof.
  apply record_sb_meaning. intros H. destruct (rec_run_inv ops H) as [Hl Hg Hk].
  split; [exact Hl|]. split; [|split; [|exact Hk]].
  - intros j Hj. rewrite Hg. apply lookup_spec_lt, Hj.
  - intros [k v] Hin. cbn [fst]. apply N.lt_nge. intros Hge.
    apply (key_in_get k v _ Hin). rewrite Hg. apply lookup_spec_ge, Hge.
Qed.

Definition snap_alloc (n s : N) : info :=
  mkI tally_zero tally_zero (mkT n (n * s)) tally_zero (Z.of_N n) (Z.of_N n) (Z.of_N (n * s)) (Z.of_N (n * s)).

(** Three threads: two tuning rounds (each clears, then records), then two
    collecting rounds; thread 1 never allocates, thread 2 only in the first and
    last round. *)
Example record_three_threads :
  let ops := [RClear; RRound [snap_alloc 1 16; info_init; snap_alloc 1 48];
              RClear; RRound [snap_alloc 2 16; info_init; info_init];
              RRound [snap_alloc 2 16; info_init; info_init];
              RRound [snap_alloc 2 16; info_init; snap_alloc 2 48]] in
  record_guard ops = true /\
  s_len (rec_run ops) = 9 /\
  map (fun j => map_get j (s_map (rec_run ops))) [0; 1; 2; 3; 4; 5; 6; 7; 8; 9]
  = [Some (snap_alloc 2 16); None; None; Some (snap_alloc 2 16); None; None;
     Some (snap_alloc 2 16); None; Some (snap_alloc 2 48); None] /\
  flat_index (kept_rounds ops) 2 2 = 8%nat.
Proof. vm_compute. repeat split; reflexivity. Qed.
