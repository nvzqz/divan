(** [step] of the pool model (C06, C07) as a relation, and the control-state
    invariant [Inv] (reference count = number of workers that still hold the
    task block, those workers belong to the current broadcast and the block is
    alive, no lost wake-up) with its preservation by every transition. *)

From DivanV Require Import Model.Pool Proofs.ListFacts.
From Coq Require Import Arith Lia List.
Import ListNotations.
Import PoolM.

Arguments Nat.sub : simpl never.
Arguments Nat.mul : simpl never.
Arguments Nat.eqb : simpl never.
Arguments Nat.leb : simpl never.
Arguments Nat.ltb : simpl never.

Section Lists.
Context {A : Type}.

Lemma set_nth_length i (x : A) l : length (set_nth i x l) = length l.
Proof. revert i; induction l as [|h t IH]; intros [|i]; cbn; auto. Qed.

Lemma nth_error_set_nth_eq i (x : A) l : i < length l -> nth_error (set_nth i x l) i = Some x.
Proof.
  revert i; induction l as [|h t IH]; intros [|i] H; cbn in *; try lia; auto.
  apply IH; lia.
Qed.

Lemma nth_error_set_nth_neq i j (x : A) l : i <> j -> nth_error (set_nth i x l) j = nth_error l j.
Proof.
  revert i j; induction l as [|h t IH]; intros [|i] [|j] H; cbn; auto; try lia.
Qed.

Lemma nth_set_nth_eq j (x d : A) l : j < length l -> nth j (set_nth j x l) d = x.
Proof.
  revert j; induction l as [|h t IH]; intros [|j] H; cbn in *; try lia; auto. apply IH. lia.
Qed.

Lemma nth_set_nth_neq i j (x d : A) l : i <> j -> nth j (set_nth i x l) d = nth j l d.
Proof.
  revert i j; induction l as [|h t IH]; intros [|i] [|j] H; cbn; auto; try lia.
Qed.

Lemma Forall_set_nth (P : A -> Prop) i x l : Forall P l -> P x -> Forall P (set_nth i x l).
Proof.
  revert i; induction l as [|h t IH]; intros [|i] H Hx; cbn; auto; inversion H; subst; constructor; auto.
Qed.

Lemma Exists_set_nth_other (P : A -> Prop) l j w x :
  Exists P l -> nth_error l j = Some w -> ~ P w -> Exists P (set_nth j x l).
Proof.
  revert j; induction l as [|h t IH]; intros j H E N; [inversion H|].
  destruct j as [|j]; cbn in *.
  - inversion E; subst. inversion H; subst; [contradiction|]. now apply Exists_cons_tl.
  - inversion H; subst; [now apply Exists_cons_hd|]. apply Exists_cons_tl. eapply IH; eauto.
Qed.

Lemma Exists_set_nth_here (P : A -> Prop) l j x : j < length l -> P x -> Exists P (set_nth j x l).
Proof.
  revert j; induction l as [|h t IH]; intros [|j] H Hx; cbn in *; try lia.
  - now apply Exists_cons_hd.
  - apply Exists_cons_tl. apply IH; auto; lia.
Qed.

Definition b2n (b : bool) : nat := if b then 1 else 0.

Lemma count_set_nth (p : A -> bool) i x w l :
  nth_error l i = Some w ->
  length (filter p (set_nth i x l)) + b2n (p w) = length (filter p l) + b2n (p x).
Proof.
  unfold b2n.
  revert i; induction l as [|h t IH]; intros [|i] E; cbn in *; try discriminate.
  - inversion E; subst. destruct (p w), (p x); cbn; lia.
  - specialize (IH _ E). destruct (p h); cbn; [f_equal|]; exact IH.
Qed.

Lemma sum_set_nth (f : A -> nat) i x w l :
  nth_error l i = Some w ->
  list_sum (map f (set_nth i x l)) + f w = list_sum (map f l) + f x.
Proof.
  unfold list_sum.
  revert i; induction l as [|h t IH]; intros [|i] E; cbn in *; try discriminate.
  - inversion E; subst. lia.
  - specialize (IH _ E). lia.
Qed.

Lemma set_nth_cases (Q : A -> Prop) (P : nat -> Prop) (l : list A) j0 w' :
  j0 < length l ->
  (forall j w, nth_error l j = Some w -> Q w -> P j) -> (Q w' -> P j0) ->
  forall j w, nth_error (set_nth j0 w' l) j = Some w -> Q w -> P j.
Proof.
  intros Lt H H0 j w E Qw. destruct (Nat.eq_dec j0 j) as [<-|N].
  - rewrite nth_error_set_nth_eq in E by auto. inversion E; subst. auto.
  - rewrite nth_error_set_nth_neq in E by auto. eauto.
Qed.

Lemma map_seq_set_nth (f f' : nat -> A) len : forall start x,
  start <= x < start + len -> (forall i, i <> x -> f' i = f i) ->
  map f' (seq start len) = set_nth (x - start) (f' x) (map f (seq start len)).
Proof.
  induction len as [|len IH]; intros start x Hx Hf; [lia|].
  cbn [seq map]. destruct (Nat.eq_dec start x) as [->|N].
  - rewrite Nat.sub_diag. cbn. f_equal. apply map_ext_in. intros i Hi. apply in_seq in Hi. apply Hf. lia.
  - replace (x - start) with (S (x - S start)) by lia. cbn. rewrite Hf by auto. f_equal.
    apply IH; auto. lia.
Qed.

End Lists.

(** The code's [== 1] test, [while] loop and [> 0] condition.  The memory
    orderings are not constrained here: only the publication theorem needs
    them. *)
Definition good (c : cfg) : Prop :=
  c_unpark_old c = 1 /\ c_loop c = true /\ c_nonzero c = true.

Lemma good_loop c : good c -> c_loop c = true.
Proof. now intros (_ & G & _). Qed.

Lemma leave_good c s : good c -> leave c s = Nat.eqb (rc s) 0.
Proof. intros (_ & _ & G). unfold leave. now rewrite G. Qed.

Inductive reachable (c : cfg) (scr : list nat) : state -> Prop :=
| R_init : reachable c scr (init scr)
| R_step s l s' : reachable c scr s -> step c s l = Some s' -> reachable c scr s'.

Lemma run_reachable c scr s ls s' : reachable c scr s -> run c s ls = Some s' -> reachable c scr s'.
Proof.
  revert s. induction ls as [|l ls IH]; cbn; intros s R H.
  - now inversion H; subst.
  - destruct (step c s l) as [s1|] eqn:E; [|discriminate]. apply (IH s1); [|exact H]. econstructor; eauto.
Qed.

Lemma final_inv s : final s = true -> cst s = CDone /\ Forall (fun w => w = WExit) (ws s).
Proof.
  unfold final, all_exited. destruct (cst s); try discriminate. intro F. split; auto.
  apply Forall_forall. intros w Hw. apply (proj1 (forallb_forall _ _) F) in Hw. now destruct w.
Qed.

(** Workers are numbered from 1: worker [S j] is [nth_error (ws s) j]. *)
Inductive step_of (c : cfg) (s : state) : label -> state -> Prop :=
| S_begin n rest : cst s = CIdle -> script s = n :: rest -> step_of c s (EBegin n) (st_begin s n rest)
| S_send j n : cst s = CSend (S j) n -> nth_error (ws s) j = Some WIdle -> step_of c s (ESend (S j)) (st_send s (S j) n)
| S_run0 n p : cst s = CRun n -> step_of c s (ERun0 p) (st_run0 s n p)
| S_load n : cst s = CLoad n ->
    step_of c s ELoad (if leave c s then do_return s n (load_view c s) (token s) else st_topark s n (load_view c s))
| S_park n : cst s = CPark n -> token s = true ->
    step_of c s EPark (if c_loop c then to_load s n false else do_return s n (cview s) false)
| S_spurious n : cst s = CPark n ->
    step_of c s ESpurious (if c_loop c then to_load s n (token s) else do_return s n (cview s) (token s))
| S_wrun j b p : nth_error (ws s) j = Some (WRun b) -> step_of c s (EWRun (S j) p) (st_wrun s (S j) b p)
| S_wclone j b : nth_error (ws s) j = Some (WClone b) -> step_of c s (EWClone (S j)) (st_wclone s (S j) b)
| S_wdec j b : nth_error (ws s) j = Some (WDec b) -> step_of c s (EWDec (S j)) (st_wdec c s (S j) b)
| S_wunpark j b : nth_error (ws s) j = Some (WUnpark b) -> step_of c s (EWUnpark (S j)) (st_wunpark s (S j))
| S_drop : cst s = CIdle -> script s = [] -> step_of c s EDrop (st_drop s)
| S_wexit j : cst s = CDone -> nth_error (ws s) j = Some WIdle -> step_of c s (EWExit (S j)) (st_wexit s (S j)).

Lemma step_inv c s l s' : step c s l = Some s' -> step_of c s l s'.
Proof.
  unfold step. intro H. destruct l.
  (* the four worker labels that are enabled wherever the caller is *)
  7-10: destruct k as [|j]; [discriminate|]; cbn [getw] in H;
    destruct (nth_error (ws s) j) as [[]|] eqn:Hj; try discriminate;
    injection H as <-; econstructor; exact Hj.
  - destruct (cst s) eqn:Hc; try discriminate. destruct (script s) as [|m rest] eqn:Es; try discriminate.
    destruct (Nat.eqb_spec n m) as [<-|]; [|discriminate]. injection H as <-. now constructor.
  - destruct (cst s) eqn:Hc; try discriminate. destruct (Nat.eqb_spec k k0) as [<-|]; [|discriminate].
    destruct k as [|j]; [discriminate|]. cbn [getw] in H.
    destruct (nth_error (ws s) j) as [[]|] eqn:Hj; try discriminate. injection H as <-. now constructor.
  - destruct (cst s) eqn:Hc; try discriminate. injection H as <-. now constructor.
  - destruct (cst s) eqn:Hc; try discriminate.
    destruct (leave c s) eqn:E; injection H as <-; pose proof (S_load c s n Hc) as X; now rewrite E in X.
  - destruct (cst s) eqn:Hc; try discriminate. destruct (token s) eqn:Ht; [|discriminate]. injection H as <-. now constructor.
  - destruct (cst s) eqn:Hc; try discriminate. injection H as <-. now constructor.
  - destruct (cst s) eqn:Hc; try discriminate. destruct (script s) eqn:Es; try discriminate. injection H as <-. now constructor.
  - destruct (cst s) eqn:Hc; try discriminate. destruct k as [|j]; [discriminate|]. cbn [getw] in H.
    destruct (nth_error (ws s) j) as [[]|] eqn:Hj; try discriminate. injection H as <-. now constructor.
Qed.

Lemma step_intro c s l s' : step_of c s l s' -> step c s l = Some s'.
Proof.
  unfold step.
  destruct 1 as [n rest Hc Es|j n Hc Hj|n p Hc|n Hc|n Hc Ht|n Hc|j b p Hj|j b Hj|j b Hj|j b Hj|Hc Es|j Hc Hj];
    cbn [getw]; rewrite ?Hc, ?Es, ?Ht, ?Hj, ?Nat.eqb_refl; cbn [getw]; rewrite ?Hj;
    try reflexivity; destruct (leave c s); reflexivity.
Qed.

Lemma begin_cst n :
  let c' := if Nat.eqb n 0 then CRun 0 else CSend 1 n in in_broadcast c' = true /\ bcast_n c' = n.
Proof. cbn. now destruct (Nat.eqb_spec n 0). Qed.

Lemma send_cst k n :
  let c' := if Nat.eqb k n then CRun n else CSend (S k) n in in_broadcast c' = true /\ bcast_n c' = n.
Proof. cbn. now destruct (Nat.eqb k n). Qed.

Definition wf_w (cu : nat) (al : bool) (w : wstate) : Prop :=
  match w with
  | WRun b | WClone b | WDec b => b = cu /\ al = true
  | WUnpark b => b <= cu
  | _ => True
  end.

Definition rc_ok (s : state) : Prop :=
  match cst s with
  | CRun n | CLoad n | CPark n => rc s = count_pre s /\ n <= length (ws s)
  | CSend k n => rc s = count_pre s + (S n - k) /\ 1 <= k /\ k <= n /\ n <= length (ws s)
  | CIdle | CDone => count_pre s = 0
  end.

Definition wake_ok (s : state) : Prop :=
  match cst s with
  | CPark _ => rc s = 0 -> token s = false -> Exists (fun w => w = WUnpark (cur s)) (ws s)
  | _ => True
  end.

Definition sent_ok (s : state) : Prop :=
  forall j w, nth_error (ws s) j = Some w -> any_pre w = true -> S j < sent (cst s).

Record Inv (s : state) : Prop := {
  I_rc : rc_ok s;
  I_wf : Forall (wf_w (cur s) (alive s)) (ws s);
  I_alive : alive s = in_broadcast (cst s);
  I_wake : wake_ok s;
  I_exit : cst s <> CDone -> Forall (fun w => w <> WExit) (ws s);
  I_bad : bad s = false;
  I_sent : sent_ok s;
  I_wv : length (wviews s) = length (ws s)
}.

Lemma rc_at s c : Inv s -> cst s = c ->
  match c with
  | CRun n | CLoad n | CPark n => rc s = count_pre s /\ n <= length (ws s)
  | CSend k n => rc s = count_pre s + (S n - k) /\ 1 <= k /\ k <= n /\ n <= length (ws s)
  | CIdle | CDone => count_pre s = 0
  end.
Proof. intros I <-. exact (I_rc s I). Qed.

Lemma wf_at s j w : Inv s -> nth_error (ws s) j = Some w -> wf_w (cur s) (alive s) w.
Proof. intros I. apply Forall_nth_error, I. Qed.

Lemma sent_le_n s : Inv s -> sent (cst s) <= S (bcast_n (cst s)).
Proof.
  intro I. pose proof (I_rc s I) as R. unfold rc_ok in R. destruct (cst s); cbn; try lia.
Qed.

Lemma pre_dec_any_pre b w : pre_dec b w = true -> any_pre w = true.
Proof. destruct w; cbn; auto. Qed.

Lemma wf_false_no_pre cu w : wf_w cu false w -> any_pre w = false.
Proof. destruct w; cbn; auto; intros [_ H]; discriminate. Qed.

Lemma wf_pre cu al w : wf_w cu al w -> any_pre w = true -> pre_dec cu w = true /\ al = true.
Proof. destruct w; cbn; try discriminate; intros [-> ->] _; now rewrite Nat.eqb_refl. Qed.

Lemma wf_pre_dec cu al w : wf_w cu al w -> pre_dec cu w = any_pre w.
Proof. destruct w; cbn; auto; intros [-> _]; apply Nat.eqb_refl. Qed.

Lemma wf_next cu al w : any_pre w = false -> wf_w cu al w -> wf_w (S cu) true w.
Proof. destruct w; cbn; try discriminate; auto. Qed.

Lemma wf_kill cu w : wf_w cu true w -> pre_dec cu w = false -> wf_w cu false w.
Proof.
  destruct w; cbn; auto; intros [-> _]; rewrite Nat.eqb_refl; discriminate.
Qed.

Lemma no_pre_idle s : Inv s -> in_broadcast (cst s) = false -> Forall (fun w => any_pre w = false) (ws s).
Proof.
  intros I H. pose proof (I_wf s I) as W. rewrite (I_alive s I), H in W.
  eapply Forall_impl; [|exact W]. intros w. apply wf_false_no_pre.
Qed.

Lemma count_pre_none b l : Forall (fun w => any_pre w = false) l -> length (filter (pre_dec b) l) = 0.
Proof.
  intro H. apply count_zero_Forall. eapply Forall_impl; [|exact H]. intros w N.
  destruct (pre_dec b w) eqn:E; [|reflexivity]. apply pre_dec_any_pre in E. congruence.
Qed.

Lemma pre_rc_pos s j w : Inv s -> nth_error (ws s) j = Some w -> any_pre w = true -> 1 <= rc s.
Proof.
  intros I Hj P. destruct (wf_pre _ _ _ (wf_at s _ _ I Hj) P) as [Pd _].
  pose proof (count_pos _ _ _ _ Hj Pd) as C. pose proof (I_rc s I) as R. unfold rc_ok, count_pre in R.
  destruct (cst s); lia.
Qed.

Lemma inv_init scr : Inv (init scr).
Proof.
  constructor; cbn; auto.
  all: try exact Logic.I.
  intros j w H. destruct j; discriminate.
Qed.

Lemma idle_appended s k : Inv s -> cst s = CIdle ->
  Forall (fun w => any_pre w = false) (ws s ++ repeat WIdle k)
  /\ Forall (fun w => w <> WExit) (ws s ++ repeat WIdle k).
Proof.
  intros I Hc. split; apply Forall_app; split; try (apply Forall_repeat; easy).
  - apply no_pre_idle; [exact I|now rewrite Hc].
  - apply (I_exit s I). rewrite Hc. discriminate.
Qed.

Lemma inv_begin s n rest : Inv s -> cst s = CIdle -> Inv (st_begin s n rest).
Proof.
  intros I Hc.
  assert (NP : Forall (fun w => any_pre w = false) (ws s)) by (apply no_pre_idle; auto; now rewrite Hc).
  destruct (idle_appended s (n - length (ws s)) I Hc) as [NP' NE].
  constructor; unfold st_begin; cbn.
  - unfold rc_ok, count_pre; cbn. rewrite (count_pre_none _ _ NP').
    rewrite app_length, repeat_length.
    destruct (Nat.eqb_spec n 0); cbn; lia.
  - apply Forall_app; split.
    + eapply Forall_impl2; [|exact NP|exact (I_wf s I)]. intros w H1 H2. eapply wf_next; eauto.
    + apply Forall_repeat. exact Logic.I.
  - now destruct (Nat.eqb n 0).
  - unfold wake_ok; cbn. now destruct (Nat.eqb n 0).
  - intros _. exact NE.
  - apply (I_bad s I).
  - intros j w E P. exfalso. pose proof (Forall_nth_error _ _ _ _ NP' E) as F. cbn in F. congruence.
  - rewrite !app_length, !repeat_length. now rewrite (I_wv s I).
Qed.

Lemma inv_send s j n : Inv s -> cst s = CSend (S j) n -> nth_error (ws s) j = Some WIdle -> Inv (st_send s (S j) n).
Proof.
  intros I Hc Hj.
  destruct (rc_at s _ I Hc) as (R1 & R2 & R3 & R4). unfold count_pre in R1.
  assert (Al : alive s = true) by (rewrite (I_alive s I), Hc; reflexivity).
  pose proof (count_set_nth (pre_dec (cur s)) j (WRun (cur s)) WIdle (ws s) Hj) as C.
  cbn in C. rewrite Nat.eqb_refl in C. cbn in C.
  constructor; unfold st_send; cbn.
  - unfold rc_ok, count_pre; cbn. rewrite set_nth_length.
    destruct (Nat.eqb_spec (S j) n); cbn; lia.
  - apply Forall_set_nth; [exact (I_wf s I)|]. cbn. auto.
  - rewrite Al. now destruct (Nat.eqb (S j) n).
  - unfold wake_ok; cbn. now destruct (Nat.eqb (S j) n).
  - intros _. apply Forall_set_nth; [|discriminate]. apply (I_exit s I). rewrite Hc; discriminate.
  - apply (I_bad s I).
  - unfold sent_ok; cbn. apply (set_nth_cases (fun w => any_pre w = true)); [apply (nth_error_lt _ _ _ Hj)| |].
    + intros j' w E P. pose proof (I_sent s I _ _ E P) as Hs. rewrite Hc in Hs. cbn in Hs.
      destruct (Nat.eqb (S j) n); cbn; lia.
    + intros _. destruct (Nat.eqb_spec (S j) n); cbn; lia.
  - rewrite !set_nth_length. apply (I_wv s I).
Qed.

Lemma inv_caller_move s s' :
  Inv s -> ws s' = ws s -> alive s' = alive s -> cur s' = cur s -> bad s' = bad s ->
  wviews s' = wviews s ->
  in_broadcast (cst s') = in_broadcast (cst s) -> sent (cst s') = sent (cst s) ->
  cst s <> CDone ->
  rc_ok s' -> wake_ok s' -> Inv s'.
Proof.
  intros I Hw Ha Hcu Hb Hv Hin Hs Hd R W.
  constructor.
  - exact R.
  - rewrite Hw, Hcu, Ha. apply (I_wf s I).
  - rewrite Ha, Hin. apply (I_alive s I).
  - exact W.
  - intros _. rewrite Hw. apply (I_exit s I). auto.
  - rewrite Hb. apply (I_bad s I).
  - unfold sent_ok. rewrite Hw, Hs. apply (I_sent s I).
  - rewrite Hv, Hw. apply (I_wv s I).
Qed.

Lemma inv_return s n cv tok : Inv s -> cst s = CLoad n -> rc s = 0 -> Inv (do_return s n cv tok).
Proof.
  intros I Hc Hr.
  destruct (rc_at s _ I Hc) as (R1 & R2).
  assert (Al : alive s = true) by (rewrite (I_alive s I), Hc; reflexivity).
  assert (Z : count_pre s = 0) by lia.
  assert (W : Forall (wf_w (cur s) false) (ws s)).
  { unfold count_pre in Z. apply count_zero_Forall in Z.
    eapply Forall_impl2; [|exact (I_wf s I)|exact Z]. intros w H1 H2. rewrite Al in H1. now apply wf_kill. }
  constructor; unfold do_return; cbn.
  - exact Z.
  - exact W.
  - reflexivity.
  - exact Logic.I.
  - intros _. apply (I_exit s I). rewrite Hc; discriminate.
  - apply (I_bad s I).
  - intros j w E P. exfalso. pose proof (Forall_nth_error _ _ _ _ W E) as F.
    apply wf_false_no_pre in F. congruence.
  - apply (I_wv s I).
Qed.

Lemma wake_keep s j w w' :
  nth_error (ws s) j = Some w -> (forall b, w <> WUnpark b) ->
  wake_ok s ->
  match cst s with
  | CPark _ => rc s = 0 -> token s = false -> Exists (fun x => x = WUnpark (cur s)) (set_nth j w' (ws s))
  | _ => True
  end.
Proof.
  intros E N W. unfold wake_ok in W. destruct (cst s); auto.
  intros H1 H2. eapply Exists_set_nth_other; eauto.
Qed.

(** The counter follows the number of workers before their decrement. *)
Lemma inv_worker s s' j w w' :
  Inv s -> nth_error (ws s) j = Some w -> ws s' = set_nth j w' (ws s) ->
  cst s' = cst s -> cur s' = cur s -> alive s' = alive s -> bad s' = false ->
  length (wviews s') = length (wviews s) ->
  rc s' + b2n (any_pre w) = rc s + b2n (any_pre w') ->
  wf_w (cur s) (alive s) w' ->
  (any_pre w' = true -> any_pre w = true) ->
  (w' = WExit -> cst s = CDone) ->
  wake_ok s' ->
  Inv s'.
Proof.
  intros I Hj Hw Hc Hu Ha Hb Hv Hr W' Hp Hx Wk.
  pose proof (nth_error_lt _ _ _ Hj) as Lt.
  pose proof (wf_at s _ _ I Hj) as W.
  constructor.
  - pose proof (count_set_nth (pre_dec (cur s)) j w' w (ws s) Hj) as C.
    rewrite (wf_pre_dec _ _ _ W), (wf_pre_dec _ _ _ W') in C.
    assert (L1 : b2n (any_pre w') <= b2n (any_pre w)) by (destruct (any_pre w'); [rewrite Hp|]; cbn; auto; lia).
    assert (L2 : b2n (any_pre w) <= count_pre s).
    { destruct (any_pre w) eqn:E; cbn; [|lia]. apply (count_pos _ _ _ _ Hj). now rewrite (wf_pre_dec _ _ _ W). }
    pose proof (I_rc s I) as R. unfold rc_ok, count_pre in *. rewrite Hc, Hu, Hw, set_nth_length.
    destruct (cst s); lia.
  - rewrite Hw, Hu, Ha. apply Forall_set_nth; [apply I|exact W'].
  - rewrite Ha, Hc. apply I.
  - exact Wk.
  - rewrite Hc, Hw. intro N. apply Forall_set_nth; [now apply (I_exit s I)|]. intro X. auto.
  - exact Hb.
  - unfold sent_ok. rewrite Hw, Hc.
    apply (set_nth_cases (fun x => any_pre x = true)); [exact Lt|apply I|]. intro X. apply (I_sent s I j w Hj). auto.
  - rewrite Hv, Hw, set_nth_length. apply I.
Qed.

Lemma inv_wrun s j b p : Inv s -> nth_error (ws s) j = Some (WRun b) -> Inv (st_wrun s (S j) b p).
Proof.
  intros I Hj. destruct (wf_at s _ _ I Hj) as [-> Al].
  apply (inv_worker s _ j _ (WClone (cur s)) I Hj); try reflexivity; cbn; try easy.
  - unfold upd_bad, touch_ok. now rewrite (I_bad s I), Al, Nat.eqb_refl.
  - apply set_nth_length.
  - unfold wake_ok; cbn. apply (wake_keep s j _ _ Hj); [discriminate|apply I].
Qed.

Lemma inv_wclone s j b : Inv s -> nth_error (ws s) j = Some (WClone b) -> Inv (st_wclone s (S j) b).
Proof.
  intros I Hj. destruct (wf_at s _ _ I Hj) as [-> Al].
  apply (inv_worker s _ j _ (WDec (cur s)) I Hj); try reflexivity; cbn; try easy.
  - unfold upd_bad, touch_ok. now rewrite (I_bad s I), Al, Nat.eqb_refl.
  - unfold wake_ok; cbn. apply (wake_keep s j _ _ Hj); [discriminate|apply I].
Qed.

(** The worker that brings the counter from [c_unpark_old = 1] to zero is the one
    that goes on to unpark: no wake-up is lost. *)
Lemma inv_wdec c s j b : good c -> Inv s -> nth_error (ws s) j = Some (WDec b) -> Inv (st_wdec c s (S j) b).
Proof.
  intros (G1 & _) I Hj. destruct (wf_at s _ _ I Hj) as [-> Al].
  pose proof (pre_rc_pos s j _ I Hj eq_refl) as Rpos.
  apply (inv_worker s _ j _ (if Nat.eqb (rc s) (c_unpark_old c) then WUnpark (cur s) else WIdle) I Hj);
    try reflexivity; cbn; try (destruct (Nat.eqb (rc s) (c_unpark_old c)); cbn; (easy || lia)).
  - unfold upd_bad, touch_ok. rewrite (I_bad s I), Al, Nat.eqb_refl.
    destruct (Nat.eqb_spec (rc s) 0); [lia|reflexivity].
  - unfold wake_ok; cbn. destruct (cst s); auto.
    intros Z _. apply Exists_set_nth_here; [apply (nth_error_lt _ _ _ Hj)|].
    rewrite G1. replace (rc s) with 1 by lia. reflexivity.
Qed.

Theorem inv_step c s l s' : good c -> Inv s -> step c s l = Some s' -> Inv s'.
Proof.
  intros G I H. pose proof (I_rc s I) as R. unfold rc_ok in R.
  destruct (step_inv _ _ _ _ H) as [n rest Hc Es|j n Hc Hj|n p Hc|n Hc|n Hc Ht|n Hc|j b p Hj|j b Hj|j b Hj|j b Hj|Hc Es|j Hc Hj];
    rewrite ?(leave_good c s G), ?(good_loop c G).
  (* index 0 is run; [park] returns, by token or spuriously; the pool is dropped *)
  3, 5, 6, 11: apply (inv_caller_move s _ I); try reflexivity; cbn; rewrite Hc in *; easy.
  - now apply inv_begin.
  - now apply inv_send.
  - destruct (Nat.eqb_spec (rc s) 0); [now apply inv_return|].
    apply (inv_caller_move s _ I); try reflexivity; cbn; rewrite Hc in *; easy.
  - now apply inv_wrun.
  - now apply inv_wclone.
  - now apply inv_wdec.
  - (* the token is set: the wake-up clause holds for any counter *)
    apply (inv_worker s _ j _ WIdle I Hj); try reflexivity; cbn; try easy; [apply I|].
    unfold wake_ok; cbn. destruct (cst s); auto. discriminate.
  - apply (inv_worker s _ j _ WExit I Hj); try reflexivity; cbn; try easy. apply I.
Qed.

Theorem inv_reachable c scr s : good c -> reachable c scr s -> Inv s.
Proof.
  intros G R. induction R.
  - apply inv_init.
  - eapply inv_step; eauto.
Qed.
