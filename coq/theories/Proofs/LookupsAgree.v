(** C12: [lookups_agree] follows from a hypothesis one can check on a registry:
    in the tree of the benchmarks' module paths no two sibling modules differ only
    by a leading "r#" ([no_raw_twins]). *)
From Coq Require Import Permutation.
From DivanV Require Import Base.Res Model.Registry Model.Tree Model.Driver
  Proofs.TreeBase Proofs.DriverC14 Proofs.TreeLeaves Proofs.Flat Proofs.FlatBridge Proofs.RawAttach Proofs.ListView
  Proofs.ListFacts.
Local Open Scope N_scope.

Inductive no_twins : list skel -> Prop :=
| no_twins_intro : forall l, no_raw_twins_level l -> (forall r ch, In (SNode r ch) l -> no_twins ch) -> no_twins l.

Definition no_raw_twins (benches : list bench_entry) (groups : list group_entry) : Prop :=
  no_twins (map skel_of (from_benches (all_entries benches groups))).

Lemma skel_children_in : forall c l ch, skel_children c l = Some ch -> In (SNode c ch) l /\ In c (skel_names l).
Proof.
  intros c. induction l as [|[|r ch0] tl IH]; intros ch H; cbn in *; [discriminate| |].
  - destruct (IH ch H). split; [right|]; assumption.
  - destruct (str_eqb r c) eqn:E.
    + apply str_eqb_spec in E. inversion H; subst. split; left; reflexivity.
    + destruct (IH ch H). split; right; assumption.
Qed.

Lemma skel_children_present : forall c l ch, skel_children c (map skel_of l) = Some ch -> In c (parent_names l).
Proof.
  intros c. induction l as [|[r g ch0|e a] tl IH]; intros ch H; cbn in *; [discriminate| |].
  - destruct (str_eqb r c) eqn:E; [apply str_eqb_spec in E; left; exact E|right; apply (IH ch H)].
  - apply (IH ch H).
Qed.

Lemma no_twins_skel_level : forall p l lv, no_twins l -> skel_level p l = Some lv -> no_twins lv.
Proof.
  induction p as [|c rest IH]; intros l lv Hn H; cbn in H; [inversion H; subst; exact Hn|].
  destruct (skel_children c l) as [ch|] eqn:E; [|discriminate].
  inversion Hn as [? _ Hch]; subst. apply (IH ch lv); [|exact H].
  apply (Hch c ch). apply (skel_children_in c l ch E).
Qed.

Lemma raw_leaf_head : forall c rest e a l, In (c :: rest, e, a) (raw_leaves l) -> In c (parent_names l).
Proof.
  intros c rest e a l H. apply in_flat_map in H. destruct H as [t [Ht H]]. apply in_flat_map. exists t. split; [exact Ht|].
  destruct t as [r g ch|e' a']; cbn in H.
  - apply in_map_iff in H. destruct H as [y [Hy _]]. inversion Hy. left. reflexivity.
  - destruct H as [H|[]]. discriminate.
Qed.

Lemma trie_paths : forall l, trie_forest l ->
  forall x, In x (raw_leaves l) -> exists lv, skel_level (fst (fst x)) (map skel_of l) = Some lv.
Proof.
  unfold raw_leaves. induction l as [|e a tl IHtl|r g ch tl IHch IHtl] using forest_ind; intros Hl x Hx.
  - contradiction.
  - destruct Hx as [Hx|Hx]; [subst x; eexists; reflexivity|].
    destruct (IHtl (trie_forest_remove_leaf [] e a tl Hl) x Hx) as [lv H].
    destruct (fst (fst x)); [eexists; reflexivity|exists lv; exact H].
  - destruct (trie_forest_split [] r g ch tl Hl) as [_ [Hr [Hch Htl]]].
    cbn [flat_map raw_leaves_node] in Hx. apply in_app_or in Hx. destruct Hx as [Hx|Hx].
    + apply in_map_iff in Hx. destruct Hx as [y [Hy Hx]]. subst x.
      cbn [prepend fst snd map skel_of skel_level skel_children]. rewrite str_eqb_refl. apply (IHch Hch y Hx).
    + destruct (IHtl Htl x Hx) as [lv H]. destruct x as [[[|c rest] e] a]; [eexists; reflexivity|].
      cbn [fst map skel_of skel_level skel_children] in *. exists lv.
      destruct (str_eqb r c) eqn:E; [|exact H].
      apply str_eqb_spec in E. subst c. exfalso. apply Hr. apply (raw_leaf_head r rest e a tl Hx).
Qed.

Lemma from_benches_paths : forall es e, In e es ->
  exists lv, skel_level (entry_path e) (map skel_of (from_benches es)) = Some lv.
Proof.
  intros es e He. apply (trie_paths _ (trie_from_benches es) (rleaf_of e)).
  apply (Permutation_in _ (Permutation_sym (raw_leaves_from_benches es))). apply in_map. exact He.
Qed.

Lemma entry_path_meta : forall e, exists extra, entry_path e = module_components (entry_meta e) ++ extra.
Proof. intros [b|g ge]; cbn; [exists []; rewrite app_nil_r; reflexivity|eexists; reflexivity]. Qed.

Lemma npath_cons2 : forall p a1 a2 q b1 b2,
  npath_eqb (p :: a1 :: a2) (q :: b1 :: b2) = str_eqb p q && npath_eqb (a1 :: a2) (b1 :: b2).
Proof. reflexivity. Qed.

Lemma npath_eqb_snoc : forall a x b y, npath_eqb (a ++ [x]) (b ++ [y]) = path_eqb a b && str_eqb (strip_raw x) (strip_raw y).
Proof.
  induction a as [|p a IH]; intros x b y.
  - destruct b as [|q b]; [reflexivity|]. cbn [app].
    destruct (b ++ [y]) as [|b1 b2] eqn:E; [destruct b; discriminate|]. cbn. rewrite andb_false_r. reflexivity.
  - destruct b as [|q b]; cbn [app].
    + destruct (a ++ [x]) as [|a1 a2] eqn:E; [destruct a; discriminate|]. cbn. rewrite andb_false_r. reflexivity.
    + destruct (a ++ [x]) as [|a1 a2] eqn:Ea; [destruct a; discriminate|].
      destruct (b ++ [y]) as [|b1 b2] eqn:Eb; [destruct b; discriminate|].
      rewrite npath_cons2, <- Ea, <- Eb, IH. unfold path_eqb. cbn [list_eqb]. rewrite andb_assoc. reflexivity.
Qed.

Lemma path_eqb_snoc : forall a x b y, path_eqb (a ++ [x]) (b ++ [y]) = path_eqb a b && str_eqb x y.
Proof.
  intros a x b y. apply Bool.eq_true_iff_eq. rewrite andb_true_iff, !path_eqb_spec, str_eqb_spec. split.
  - intro H. apply app_inj_tail in H. exact H.
  - intros [H1 H2]. subst. reflexivity.
Qed.

Lemma lookups_agree_of_no_twins : forall benches groups,
  no_raw_twins benches groups -> lookups_agree benches groups.
Proof.
  intros benches groups Hnt e P suf He HP Hsuf.
  set (T0 := from_benches (all_entries benches groups)) in *.
  destruct (exists_last HP) as [Pm [c EP]]. subst P.
  (* the level of Pm exists in the benches' tree and c is one of its module names *)
  destruct (entry_path_meta e) as [extra Hex]. rewrite Hsuf in Hex.
  destruct (from_benches_paths _ e He) as [lvE HlvE]. fold T0 in HlvE. rewrite Hex in HlvE.
  rewrite <- !app_assoc in HlvE. apply skel_level_app in HlvE. destruct HlvE as [lv [Hlv Hrest]].
  cbn [app skel_level] in Hrest. destruct (skel_children c lv) as [chc|] eqn:Ec; [|discriminate].
  pose proof (skel_children_in c lv chc Ec) as [_ Hcin].
  pose proof (no_twins_skel_level Pm _ lv Hnt Hlv) as Hntlv. inversion Hntlv as [? Htw _]; subst.
  unfold find_module_group, fmk, find_module_group_by. apply find_ext_in.
  intros g _. f_equal. unfold attach_key, raw_key, raw_key_s, group_key. fold T0.
  rewrite npath_eqb_snoc, path_eqb_snoc. rewrite attach_last_level.
  destruct (path_eqb (module_components (g_meta g)) Pm) eqn:Em; [|reflexivity]. cbn [andb].
  apply path_eqb_spec in Em. rewrite Em, Hlv.
  destruct (str_eqb (strip_raw (m_raw (g_meta g))) (strip_raw c)) eqn:Es.
  - apply str_eqb_spec in Es. symmetry. apply str_eqb_spec. apply attach_name_in; [exact Htw|exact Hcin|symmetry; exact Es].
  - symmetry. destruct (str_eqb (attach_name (m_raw (g_meta g)) lv) c) eqn:E2; [|reflexivity].
    apply str_eqb_spec in E2. rewrite <- E2, attach_name_strip, str_eqb_refl in Es. discriminate.
Qed.

Lemma exec_flat_no_twins : forall c benches groups,
  no_name_clash (attach_key benches groups) benches groups -> no_raw_twins benches groups ->
  Permutation (exec_forest c [] None (retain (c_filter c) (build_tree benches groups)))
              (flat_exec c benches groups).
Proof. intros c b g Hg Hn. apply exec_flat; [exact Hg|apply lookups_agree_of_no_twins; exact Hn]. Qed.

Lemma list_view_no_twins : forall srt, (forall t, forest_perm t (srt t)) ->
  forall c benches groups,
  no_name_clash (attach_key benches groups) benches groups -> no_raw_twins benches groups ->
  snd (run_action c srt List benches groups) = None /\
  Permutation (painted_leaves (fst (run_action c srt List benches groups))) (flat_list c benches groups).
Proof. intros srt Hs c b g Hg Hn. apply (list_view srt Hs); [exact Hg|apply lookups_agree_of_no_twins; exact Hn]. Qed.

Example no_raw_twins_registry :
  no_raw_twins [w_bench_a; x_bench] [w_mod_group] /\
  no_name_clash (attach_key [w_bench_a; x_bench] [w_mod_group]) [w_bench_a; x_bench] [w_mod_group].
Proof.
  split.
  - unfold no_raw_twins. vm_compute.
    (* two modules, each with one submodule holding one benchmark *)
    assert (Hleaf : no_twins [SLeaf]) by (constructor; [constructor|intros r ch [H|[]]; discriminate]).
    assert (Hone : forall r, no_twins [SNode r [SLeaf]]).
    { intro r. constructor; [constructor; [intros []|constructor]|]. intros r' ch [H|[]]. inversion H. exact Hleaf. }
    constructor.
    + constructor; [intros [H|[]]; discriminate|constructor; [intros []|constructor]].
    + intros r ch [H|[H|[]]]; inversion H; apply Hone.
  - split; [cbn; constructor; [intros []|constructor]|]. intros h [Hh|[]] Hm. subst h. discriminate.
Qed.
