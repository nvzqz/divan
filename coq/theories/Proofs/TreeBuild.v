(** Proofs about Model/TreeBuild.v: what [from_benches] builds (every benchmark
    once, below exactly the parents its module path names, no two sibling
    parents with one name) and what [insert_group] may change (one group slot;
    names, leaves and uniqueness stay). *)
From Coq Require Import Permutation.
From DivanV Require Import Base.Res Model.Filter Model.TreeBuild Proofs.Filter Proofs.ListFacts.

Definition is_parent_named (m : str) (t : btree) : bool :=
  match t with BParent r _ _ => str_eqb r m | BLeaf _ => false end.

(** Either no parent is named [m] and nothing happens, or the forest splits
    at the first such parent, whose children are updated. *)
Lemma update_first_parent_cases (m : str) (f : list btree -> list btree) (tree : list btree) :
  (update_first_parent m f tree = None /\ forall t, In t tree -> is_parent_named m t = false)
  \/ exists pre g ch post,
       tree = pre ++ BParent m g ch :: post
       /\ (forall t, In t pre -> is_parent_named m t = false)
       /\ update_first_parent m f tree = Some (pre ++ BParent m g (f ch) :: post).
Proof.
  induction tree as [|t tree IH]; [left; split; [reflexivity | intros t []]|].
  destruct (is_parent_named m t) eqn:E.
  - right. destruct t as [r g ch|b]; [|discriminate]. cbn [update_first_parent is_parent_named] in *. rewrite E.
    apply str_eqb_eq in E. subst r. exists [], g, ch, tree. split; [reflexivity|]. split; [intros t []|reflexivity].
  - assert (Hstep : update_first_parent m f (t :: tree)
                    = match update_first_parent m f tree with Some rest' => Some (t :: rest') | None => None end)
      by (destruct t; cbn [update_first_parent is_parent_named] in *; [rewrite E|]; reflexivity).
    rewrite Hstep. destruct IH as [[-> Hno]|(pre & g & ch & post & -> & Hpre & ->)].
    + left. split; [reflexivity|]. intros x [<-|Hin]; [exact E | exact (Hno x Hin)].
    + right. exists (t :: pre), g, ch, post. split; [reflexivity|]. split; [|reflexivity].
      intros x [<-|Hin]; [exact E | exact (Hpre x Hin)].
Qed.

Lemma parent_names_app (a b : list btree) : parent_names (a ++ b) = parent_names a ++ parent_names b.
Proof.
  induction a as [|t a IH]; [reflexivity|]. cbn [app parent_names]. destruct t; cbn [app]; rewrite IH; reflexivity.
Qed.

Lemma in_parent_names (m : str) (tree : list btree) :
  In m (parent_names tree) <-> exists g ch, In (BParent m g ch) tree.
Proof.
  induction tree as [|t tree IH]; cbn [parent_names].
  - split; [intros []|intros (g & ch & [])].
  - destruct t as [r g ch|b]; cbn [In]; rewrite IH; split.
    + intros [<-|(g' & ch' & H)]; [exists g, ch; left; reflexivity|exists g', ch'; right; exact H].
    + intros (g' & ch' & [H|H]); [injection H as -> _ _; left; reflexivity|right; exists g', ch'; exact H].
    + intros (g' & ch' & H). exists g', ch'. right. exact H.
    + intros (g' & ch' & [H|H]); [discriminate|exists g', ch'; exact H].
Qed.

Lemma not_named_not_in (m : str) (tree : list btree) :
  (forall t, In t tree -> is_parent_named m t = false) -> ~ In m (parent_names tree).
Proof.
  intros H Hin. apply in_parent_names in Hin. destruct Hin as (g & ch & Hin).
  specialize (H _ Hin). cbn [is_parent_named] in H. rewrite str_eqb_refl in H. discriminate.
Qed.

Lemma in_focus (pre post : list btree) (t x : btree) :
  In x (pre ++ t :: post) <-> x = t \/ In x (pre ++ post).
Proof.
  rewrite !in_app_iff. cbn [In]. split.
  - intros [H|[H|H]]; auto.
  - intros [H|[H|H]]; auto.
Qed.

(** Sibling parents distinct, anywhere in the tree.  [nm] is what a name is
    compared by: the name itself for [uniq], the name without a [r#] prefix
    where groups are attached. *)
Inductive uniq : list btree -> Prop :=
| uniq_intro (tree : list btree) :
    NoDup (parent_names tree) ->
    (forall r g ch, In (BParent r g ch) tree -> uniq ch) ->
    uniq tree.

Inductive uniq_by (nm : str -> str) : list btree -> Prop :=
| uniq_by_intro (tree : list btree) :
    NoDup (map nm (parent_names tree)) ->
    (forall r g ch, In (BParent r g ch) tree -> uniq_by nm ch) ->
    uniq_by nm tree.

Lemma uniq_by_id (tree : list btree) : uniq_by (fun x => x) tree -> uniq tree.
Proof.
  induction 1 as [tree Hnd _ IH]. constructor; [|exact IH]. rewrite map_id in Hnd. exact Hnd.
Qed.

Lemma uniq_by_child (nm : str -> str) (pre post : list btree) (m : str) (g : option nat) (ch : list btree) :
  uniq_by nm (pre ++ BParent m g ch :: post) -> uniq_by nm ch.
Proof.
  intros H. inversion H as [tree _ Hsub]; subst. apply (Hsub m g ch), in_focus. left. reflexivity.
Qed.

(** Replacing the group and the children of one parent keeps the names. *)
Lemma uniq_by_replace (nm : str -> str) (pre post : list btree) (m : str) (g g' : option nat) (ch ch' : list btree) :
  uniq_by nm (pre ++ BParent m g ch :: post) -> uniq_by nm ch' -> uniq_by nm (pre ++ BParent m g' ch' :: post).
Proof.
  intros H Hch. inversion H as [tree Hnd Hsub]; subst. constructor.
  - rewrite parent_names_app in *. exact Hnd.
  - intros r g0 ch0 Hin. apply in_focus in Hin. destruct Hin as [Hin|Hin].
    + injection Hin as _ _ ->. exact Hch.
    + apply (Hsub r g0 ch0), in_focus. right. exact Hin.
Qed.

Definition chains (above : list (str * option nat)) (tree : list btree) : list (nat * list (str * option nat)) :=
  flat_map (leaf_chains_tree above) tree.

Definition plain (p : list str) : list (str * option nat) := map (fun m => (m, None)) p.

Lemma chains_app above a b : chains above (a ++ b) = chains above a ++ chains above b.
Proof. unfold chains. apply flat_map_app. Qed.

Lemma chains_cons above t rest : chains above (t :: rest) = leaf_chains_tree above t ++ chains above rest.
Proof. reflexivity. Qed.

Lemma chains_parent above r s ch : leaf_chains_tree above (BParent r s ch) = chains (above ++ [(r, s)]) ch.
Proof. reflexivity. Qed.

Lemma chains_from_path (b : nat) (ms : list str) : forall above,
  leaf_chains_tree above (from_path b ms) = [(b, above ++ plain ms)].
Proof.
  induction ms as [|m rest IH]; intros above; cbn [from_path leaf_chains_tree plain map].
  - rewrite app_nil_r. reflexivity.
  - cbn [flat_map]. rewrite app_nil_r. rewrite IH. rewrite <- app_assoc. reflexivity.
Qed.

(** What the leaves of the finished tree must be: benchmark [i] below [plain p_i]. *)
Fixpoint expected_from (i : nat) (paths : list (list str)) : list (nat * list (str * option nat)) :=
  match paths with
  | [] => []
  | p :: rest => (i, plain p) :: expected_from (S i) rest
  end.

(** The invariant of the tree while benchmarks are inserted: sibling parents
    distinct by [nm], every parent name in [Names], no group anywhere.  [nm] is
    injective on [Names], so a path component that finds no parent of its own name
    finds none of its [nm] either. *)
Section Built.
  Variable nm : str -> str.
  Variable Names : str -> Prop.
  Hypothesis Sinj : forall c d, Names c -> Names d -> nm c = nm d -> c = d.

  Inductive built : list btree -> Prop :=
  | built_intro (tree : list btree) :
      NoDup (map nm (parent_names tree)) ->
      (forall r g ch, In (BParent r g ch) tree -> Names r /\ g = None) ->
      (forall r g ch, In (BParent r g ch) tree -> built ch) ->
      built tree.

  Lemma built_uniq_by (tree : list btree) : built tree -> uniq_by nm tree.
  Proof. induction 1 as [tree Hnd _ _ IH]. constructor; assumption. Qed.

  Lemma built_focus (pre post : list btree) (m : str) (g : option nat) (ch : list btree) :
    built (pre ++ BParent m g ch :: post) -> (Names m /\ g = None) /\ built ch.
  Proof.
    intros H. inversion H as [tree _ Hpar Hsub]; subst.
    split; [apply (Hpar m g ch) | apply (Hsub m g ch)]; apply in_focus; left; reflexivity.
  Qed.

  Lemma built_replace (pre post : list btree) (m : str) (g : option nat) (ch ch' : list btree) :
    built (pre ++ BParent m g ch :: post) -> built ch' -> built (pre ++ BParent m g ch' :: post).
  Proof.
    intros H Hch. inversion H as [tree Hnd Hpar Hsub]; subst. constructor.
    - rewrite parent_names_app in *. exact Hnd.
    - intros r g0 ch0 Hin. apply in_focus in Hin. destruct Hin as [Hin|Hin].
      + injection Hin as -> -> _. apply (Hpar m g ch), in_focus. left. reflexivity.
      + apply (Hpar r g0 ch0), in_focus. right. exact Hin.
    - intros r g0 ch0 Hin. apply in_focus in Hin. destruct Hin as [Hin|Hin].
      + injection Hin as _ _ ->. exact Hch.
      + apply (Hsub r g0 ch0), in_focus. right. exact Hin.
  Qed.

  (** Appending a tree whose name (if it is a parent) is new. *)
  Lemma built_snoc (tree : list btree) (t : btree) :
    built tree ->
    match t with
    | BLeaf _ => True
    | BParent r g ch => (Names r /\ g = None) /\ built ch /\ forall x, In x tree -> is_parent_named r x = false
    end ->
    built (tree ++ [t]).
  Proof.
    intros H Ht. inversion H as [tr Hnd Hpar Hsub]; subst. constructor.
    - rewrite parent_names_app. destruct t as [r g ch|b]; cbn [parent_names]; [|rewrite app_nil_r; exact Hnd].
      destruct Ht as ([HS _] & _ & Hnew). rewrite map_app. apply NoDup_snoc; [exact Hnd|].
      intros Hin. apply in_map_iff in Hin. destruct Hin as (r' & Hnm & Hr').
      apply (not_named_not_in r tree Hnew). replace r with r'; [exact Hr'|].
      apply in_parent_names in Hr'. destruct Hr' as (g' & ch' & Hr').
      apply Sinj; [apply (Hpar r' g' ch' Hr') | exact HS | exact Hnm].
    - intros r g ch Hin. apply in_app_or in Hin. destruct Hin as [Hin|[->|[]]]; [exact (Hpar r g ch Hin) | apply Ht].
    - intros r g ch Hin. apply in_app_or in Hin. destruct Hin as [Hin|[->|[]]]; [exact (Hsub r g ch Hin) | apply Ht].
  Qed.

  Lemma built_nil : built [].
  Proof. constructor; [constructor | intros r g ch [] ..]. Qed.

  Lemma built_from_path (b : nat) (ms : list str) : Forall Names ms -> built [from_path b ms].
  Proof.
    intros HS. apply (built_snoc [] _ built_nil).
    induction HS as [|m rest Hm _ IH]; cbn [from_path]; [exact I|].
    split; [split; [exact Hm | reflexivity]|]. split; [|intros x []]. apply (built_snoc [] _ built_nil), IH.
  Qed.

  Lemma insert_entry_built (b : nat) (p : list str) : Forall Names p -> forall tree,
    built tree -> built (insert_entry b p tree).
  Proof.
    induction 1 as [|m rest Hm Hrest IH]; intros tree H; cbn [insert_entry].
    - apply built_snoc; [exact H | exact I].
    - destruct (update_first_parent_cases m (insert_entry b rest) tree)
        as [[-> Hno]|(pre & g & ch & post & -> & _ & ->)].
      + apply built_snoc; [exact H|]. cbn [from_path].
        split; [split; [exact Hm | reflexivity]|].
        split; [apply built_from_path; exact Hrest | exact Hno].
      + apply (built_replace pre post m g ch); [exact H|]. apply IH, (built_focus _ _ _ _ _ H).
  Qed.

  Lemma insert_entry_chains (b : nat) (p : list str) : forall tree above,
    built tree ->
    Permutation (chains above (insert_entry b p tree)) ((b, above ++ plain p) :: chains above tree).
  Proof.
    induction p as [|m rest IH]; intros tree above H; cbn [insert_entry].
    - rewrite chains_app. cbn [chains flat_map leaf_chains_tree plain map app]. rewrite !app_nil_r.
      apply Permutation_sym, Permutation_cons_append.
    - destruct (update_first_parent_cases m (insert_entry b rest) tree)
        as [[-> _]|(pre & g & ch & post & -> & _ & ->)].
      + rewrite chains_app. cbn [chains flat_map]. rewrite chains_from_path, app_nil_r.
        apply Permutation_sym, Permutation_cons_append.
      + destruct (built_focus _ _ _ _ _ H) as ([_ ->] & Hch).
        rewrite !chains_app. cbn [chains flat_map leaf_chains_tree].
        apply (Permutation_trans (Permutation_app_head _ (Permutation_app_tail _ (IH ch _ Hch)))).
        cbn [plain map app]. rewrite <- app_assoc. apply Permutation_sym, Permutation_middle.
  Qed.

  Lemma from_benches_from_built (paths : list (list str)) : Forall (Forall Names) paths -> forall i tree,
    built tree ->
    built (from_benches_from i paths tree)
    /\ Permutation (chains [] (from_benches_from i paths tree)) (expected_from i paths ++ chains [] tree).
  Proof.
    induction 1 as [|p rest Hp _ IH]; intros i tree H; cbn [from_benches_from expected_from app].
    - split; [exact H | apply Permutation_refl].
    - destruct (IH (S i) _ (insert_entry_built i p Hp tree H)) as [Hb Hperm]. split; [exact Hb|].
      apply (Permutation_trans Hperm), Permutation_sym.
      apply (Permutation_trans (Permutation_middle _ _ _)), Permutation_app_head, Permutation_sym.
      apply (insert_entry_chains i p tree [] H).
  Qed.

  Lemma from_benches_built (paths : list (list str)) :
    Forall (Forall Names) paths ->
    built (from_benches paths)
    /\ Permutation (leaf_chains (from_benches paths)) (expected_from 0 paths).
  Proof.
    intros HS. destruct (from_benches_from_built paths HS 0%nat [] built_nil) as [Hb Hperm].
    rewrite app_nil_r in Hperm. split; assumption.
  Qed.
End Built.

(** With names compared as they are, every path will do. *)
Lemma from_benches_plain (paths : list (list str)) :
  uniq_by (fun x => x) (from_benches paths)
  /\ Permutation (leaf_chains (from_benches paths)) (expected_from 0 paths).
Proof.
  destruct (from_benches_built (fun x => x) (fun _ => True) (fun c d _ _ H => H) paths) as [Hb Hperm].
  - apply Forall_all. intros p. apply Forall_all. intros c. exact I.
  - split; [exact (built_uniq_by _ _ _ Hb) | exact Hperm].
Qed.

(** [C15_tree_from_benches] *)
Lemma from_benches_spec (paths : list (list str)) :
  Permutation (leaf_chains (from_benches paths)) (expected_from 0 paths)
  /\ uniq (from_benches paths).
Proof. destruct (from_benches_plain paths) as [Hu Hperm]. split; [exact Hperm | exact (uniq_by_id _ Hu)]. Qed.

Fixpoint erase_tree (t : btree) : btree :=
  match t with
  | BLeaf b => BLeaf b
  | BParent r _ ch => BParent r None (map erase_tree ch)
  end.

(** Whether a parent named [m] is the one [insert_group _ addr raw] goes into
    or, at the end of the address, puts the group on. *)
Definition hit (addr : list str) (raw m : str) : bool :=
  match addr with
  | [] => str_eqb (strip_raw raw) (strip_raw m)
  | a :: _ => str_eqb m a
  end.

Definition hits (addr : list str) (raw : str) (t : btree) : bool :=
  match t with BParent r _ _ => hit addr raw r | BLeaf _ => false end.

(** [set_group_first] leaves the forest alone or puts the group on its first
    parent whose name is [raw] up to [r#]. *)
Lemma set_group_first_cases (raw : str) (g : nat) (tree : list btree) :
  (set_group_first raw g tree = tree /\ forall t, In t tree -> hits [] raw t = false)
  \/ exists pre r s ch post,
       tree = pre ++ BParent r s ch :: post
       /\ (forall t, In t pre -> hits [] raw t = false)
       /\ hits [] raw (BParent r s ch) = true
       /\ set_group_first raw g tree = pre ++ BParent r (Some g) ch :: post.
Proof.
  induction tree as [|t tree IH]; [left; split; [reflexivity | intros t []]|].
  destruct (hits [] raw t) eqn:E.
  - right. destruct t as [r s ch|b]; [|discriminate]. exists [], r, s, ch, tree.
    split; [reflexivity|]. split; [intros t []|]. split; [exact E|].
    cbn [set_group_first hits hit] in *. rewrite E. reflexivity.
  - assert (Hstep : set_group_first raw g (t :: tree) = t :: set_group_first raw g tree)
      by (destruct t; cbn [set_group_first hits hit] in *; [rewrite E|]; reflexivity).
    rewrite Hstep. destruct IH as [[-> Hno]|(pre & r & s & ch & post & -> & Hpre & Hhit & ->)].
    + left. split; [reflexivity|]. intros x [<-|Hin]; [exact E | exact (Hno x Hin)].
    + right. exists (t :: pre), r, s, ch, post. split; [reflexivity|]. split; [|split; [exact Hhit | reflexivity]].
      intros x [<-|Hin]; [exact E | exact (Hpre x Hin)].
Qed.

(** [insert_group] by cases: nothing on its way is hit and nothing happens; the
    group is put on a parent; or the walk goes on below a parent. *)
Lemma insert_group_cases (g : nat) (raw : str) (P : list str -> list btree -> list btree -> Prop) :
  (forall gp tree, (forall t, In t tree -> hits gp raw t = false) -> P gp tree tree) ->
  (forall pre r s ch post,
     (forall t, In t pre -> hits [] raw t = false) -> hit [] raw r = true ->
     P [] (pre ++ BParent r s ch :: post) (pre ++ BParent r (Some g) ch :: post)) ->
  (forall a rem pre s ch ch' post,
     (forall t, In t pre -> hits (a :: rem) raw t = false) -> P rem ch ch' ->
     P (a :: rem) (pre ++ BParent a s ch :: post) (pre ++ BParent a s ch' :: post)) ->
  forall gp tree, P gp tree (insert_group g gp raw tree).
Proof.
  intros Hsame Hset Hdown. induction gp as [|a rem IH]; intros tree; cbn [insert_group].
  - destruct (set_group_first_cases raw g tree) as [[-> Hno]|(pre & r & s & ch & post & -> & Hpre & Hhit & ->)].
    + apply Hsame. exact Hno.
    + apply Hset; assumption.
  - destruct (update_first_parent_cases a (insert_group g rem raw) tree)
      as [[-> Hno]|(pre & s & ch & post & -> & Hpre & ->)].
    + apply Hsame. exact Hno.
    + apply Hdown; [exact Hpre | apply IH].
Qed.

Lemma insert_group_erase (g : nat) (gp : list str) (raw : str) (tree : list btree) :
  map erase_tree (insert_group g gp raw tree) = map erase_tree tree.
Proof.
  apply (insert_group_cases g raw (fun _ t t' => map erase_tree t' = map erase_tree t)).
  - reflexivity.
  - intros pre r s ch post _ _. rewrite !map_app. reflexivity.
  - intros a rem pre s ch ch' post _ IH. rewrite !map_app. cbn [map erase_tree]. rewrite IH. reflexivity.
Qed.

Lemma insert_group_uniq_by (nm : str -> str) (g : nat) (gp : list str) (raw : str) (tree : list btree) :
  uniq_by nm tree -> uniq_by nm (insert_group g gp raw tree).
Proof.
  apply (insert_group_cases g raw (fun _ t t' => uniq_by nm t -> uniq_by nm t')).
  - intros _ t _ H. exact H.
  - intros pre r s ch post _ _ H. exact (uniq_by_replace nm _ _ _ _ _ _ _ H (uniq_by_child nm _ _ _ _ _ H)).
  - intros a rem pre s ch ch' post _ IH H.
    exact (uniq_by_replace nm _ _ _ _ _ _ _ H (IH (uniq_by_child nm _ _ _ _ _ H))).
Qed.

Lemma insert_groups_from_shape (nm : str -> str) (groups : list (list str * str)) : forall g tree,
  uniq_by nm tree ->
  map erase_tree (insert_groups_from g groups tree) = map erase_tree tree
  /\ uniq_by nm (insert_groups_from g groups tree).
Proof.
  induction groups as [|[p raw] rest IH]; intros g tree H; cbn [insert_groups_from]; [split; [reflexivity | exact H]|].
  destruct (IH (S g) _ (insert_group_uniq_by nm g p raw tree H)) as [-> Hu].
  split; [apply insert_group_erase | exact Hu].
Qed.

(** [C15_tree_groups_shape_partial] *)
Lemma build_tree_shape (paths : list (list str)) (groups : list (list str * str)) :
  map erase_tree (build_tree paths groups) = map erase_tree (from_benches paths)
  /\ uniq (build_tree paths groups).
Proof.
  destruct (insert_groups_from_shape _ groups 0 _ (proj1 (from_benches_plain paths))) as [He Hu].
  split; [exact He | exact (uniq_by_id _ Hu)].
Qed.

(** Uniqueness only looks at names, which [erase_tree] keeps. *)
Lemma parent_names_erase (tree : list btree) : parent_names (map erase_tree tree) = parent_names tree.
Proof.
  induction tree as [|t tree IH]; [reflexivity|]. destruct t; cbn [map erase_tree parent_names]; rewrite IH; reflexivity.
Qed.

Lemma uniq_erase (tree : list btree) : uniq (map erase_tree tree) <-> uniq tree.
Proof.
  split.
  - intros H. remember (map erase_tree tree) as erased eqn:E. revert tree E.
    induction H as [erased Hnd _ IH]. intros tree ->. constructor.
    + rewrite <- parent_names_erase. exact Hnd.
    + intros r g ch Hin. apply (IH r None (map erase_tree ch)); [|reflexivity].
      apply in_map_iff. exists (BParent r g ch). split; [reflexivity | exact Hin].
  - induction 1 as [tree Hnd _ IH]. constructor.
    + rewrite parent_names_erase. exact Hnd.
    + intros r g ch Hin. apply in_map_iff in Hin. destruct Hin as ([r0 g0 ch0|b] & E & Hin); [|discriminate].
      injection E as <- _ <-. exact (IH r0 g0 ch0 Hin).
Qed.

(** The registration orders of the fixed corpus: a function [sort] before,
    between and after the benchmarks of module [sort] — one parent, the group on
    it, whichever order. *)
Example leaf_between_example :
  let m := [109%N] in let s := [115%N] in
  build_tree [[m; s]; [m]; [m; s]; [m; s]] [([m], s)]
  = [BParent m None [BParent s (Some 0%nat) [BLeaf 0; BLeaf 2; BLeaf 3]; BLeaf 1]].
Proof. reflexivity. Qed.
