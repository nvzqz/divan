(** Concrete executions showing that the hypotheses of the C06/C07 theorems are
    satisfiable by non-trivial runs (two broadcasts on one pool, a panicking
    call, a wake-up by token, a spurious wake-up, a stale token, worker reuse,
    pool drop). *)

From DivanV Require Import Generated.Consts Model.Pool Proofs.Pool.
From Coq Require Import List Bool.
Import ListNotations.
Import PoolM.

(** The configuration of the unchanged source, written out (the examples that
    look at views are computed with it, so that they do not depend on the
    generated constants; [nonvacuous] below is about [code_cfg] itself). *)
Definition ref_cfg : cfg :=
  {| c_load := OAcquire; c_dec := ORelease; c_unpark_old := 1; c_loop := true; c_nonzero := true |}.

Definition ex_labels : list label :=
  [EBegin 2; ESend 1; ESend 2; EWRun 1 true; EWRun 2 false; ERun0 false; EWClone 1; EWDec 1; ELoad;
   EWClone 2; EWDec 2; EWUnpark 2; EPark; ELoad;
   EBegin 1; ESend 1; ERun0 false; ELoad; ESpurious; ELoad; EWRun 1 false; EWClone 1; EWDec 1; EWUnpark 1; EPark; ELoad;
   EDrop; EWExit 1; EWExit 2].

Example ex_run :
  match run ref_cfg (init [2; 1]) ex_labels with
  | Some s => final s && inv_all ref_cfg s
              && once_per_index s 1 2 && published s 1 2 && results_indexed s 1 2
              && once_per_index s 2 1 && published s 2 1 && results_indexed s 2 1
              && slots_eqb (match returned s with r :: _ => r_slots r | [] => [] end) [Some 0; None; Some 2]
              && Nat.eqb (length (ws s)) 2
  | None => false
  end = true.
Proof. vm_compute. reflexivity. Qed.

(** The hypotheses [reachable code_cfg scr s], [In r (returned s)], [final s = true]
    are satisfiable together. *)
Theorem nonvacuous :
  exists s r, reachable code_cfg [2; 1] s /\ final s = true /\ In r (returned s)
              /\ r_b r = 1 /\ r_n r = 2 /\ r_slots r = [Some 0; None; Some 2].
Proof.
  destruct (run code_cfg (init [2; 1]) ex_labels) as [s|] eqn:E; [|vm_compute in E; discriminate].
  assert (R : reachable code_cfg [2; 1] s) by (eapply run_reachable; [constructor|exact E]).
  vm_compute in E. injection E as <-.
  eexists. eexists. split; [exact R|].
  split; [reflexivity|]. split; [left; reflexivity|]. repeat split.
Qed.

(** A stale wake-up token: the caller sees the counter at zero before the last
    worker's [unpark], returns without parking, the token is set afterwards and
    is still pending when the next broadcast waits.  The next [park] returns at
    once, the loop re-checks the counter and parks again; the run completes. *)
Definition ex_stale_prefix : list label :=
  [EBegin 1; ESend 1; ERun0 false; EWRun 1 false; EWClone 1; EWDec 1; ELoad; EWUnpark 1].
Definition ex_stale_rest : list label :=
  [EBegin 1; ESend 1; ERun0 false; ELoad; EPark; ELoad; EWRun 1 true; EWClone 1; EWDec 1; EWUnpark 1; EPark; ELoad;
   EDrop; EWExit 1].

Example ex_stale_token :
  match run ref_cfg (init [1; 1]) ex_stale_prefix with
  | Some s1 =>
      token s1 && negb (in_broadcast (cst s1)) && Nat.eqb (length (returned s1)) 1
      && match run ref_cfg s1 ex_stale_rest with
         | Some s => final s && inv_all ref_cfg s && once_per_index s 2 1 && published s 2 1 && results_indexed s 2 1
         | None => false
         end
  | None => false
  end = true.
Proof. vm_compute. reflexivity. Qed.

(** The trace monitor accepts the event trace induced by [ex_labels] (panicking
    subset: call (1,1)), ... *)
Example ex_monitor_accepts :
  PoolMon.check [2; 1] [(1, 1)] (PoolMon.trace ref_cfg (init [2; 1]) ex_labels) = []
  /\ PoolMon.violations [(1, 1)] (PoolMon.trace ref_cfg (init [2; 1]) (firstn 9 ex_labels)) = [].
Proof. vm_compute. split; reflexivity. Qed.

(** ... and it is not vacuous: on the trace of a pool that drops the caller's
    caught payload before the wait loop (seeded change C06-b: the caller leaves
    [broadcast] by an escaping panic while worker 1 has not even called the task;
    harness trace [B.1 N.1 S.1 R.1.1.1 Q.1 C.0.0.1 Z.-,- B.1 N.1 C.1.1.x]) it
    reports once-per-index, results, dead access, incomplete and
    "left broadcast with non-zero counter". *)
Example ex_monitor_rejects :
  PoolMon.check [1; 1] [(1, 0)]
    [PoolMon.VBcast 1; PoolMon.VNew 1; PoolMon.VSpawn 1; PoolMon.VRecv 1 1 true; PoolMon.VSent 1;
     PoolMon.VCall 0 0 true; PoolMon.VRet [None; None]; PoolMon.VBcast 1; PoolMon.VNew 1; PoolMon.VDead 1]
  = [PoolMon.F_incomplete; PoolMon.F_dead; PoolMon.F_wake; PoolMon.F_results; PoolMon.F_once].
Proof. vm_compute. reflexivity. Qed.
