(** C14: sorting as an arbitrary permutation of siblings and argument names;
    the terse listing against the test run at the level of [run_action];
    exact round trip. *)
From Coq Require Import Permutation.
From DivanV Require Import Base.Res Model.Registry Model.Tree Model.Driver Proofs.TreeBase Proofs.DriverExec Proofs.ListFacts.
Local Open Scope N_scope.

(** What [EntryTree::sort_by_attr] may do: permute siblings at every level
    and the argument pointers of every leaf; nothing else. *)
Inductive sib_perm : tree -> tree -> Prop :=
| SP_leaf_none : forall e, sib_perm (Leaf e None) (Leaf e None)
| SP_leaf_some : forall e a a', Permutation a a' -> sib_perm (Leaf e (Some a)) (Leaf e (Some a'))
| SP_parent : forall r g ch ch1 ch2,
    Forall2 sib_perm ch ch1 -> Permutation ch1 ch2 -> sib_perm (Parent r g ch) (Parent r g ch2).

Definition forest_perm (l l2 : list tree) : Prop :=
  exists l1, Forall2 sib_perm l l1 /\ Permutation l1 l2.

Lemma sib_perm_refl : forall t, sib_perm t t.
Proof.
  induction t as [e [a|]|r g ch IH] using tree_ind'.
  - apply SP_leaf_some. apply Permutation_refl.
  - apply SP_leaf_none.
  - apply (SP_parent r g ch ch ch); [apply Forall2_diag, IH|apply Permutation_refl].
Qed.

Lemma forest_perm_of_perm : forall l l', Permutation l l' -> forest_perm l l'.
Proof.
  intros l l' H. exists l. split; [|exact H]. apply Forall2_diag, Forall_forall. intros t _. apply sib_perm_refl.
Qed.

Lemma forest_perm_nil : forall l, forest_perm [] l -> l = [].
Proof. intros l [l1 [H1 H2]]. inversion H1; subst. apply Permutation_nil, H2. Qed.

Lemma sib_perm_same_head : forall t t',
  sib_perm t t' -> display_name t = display_name t' /\ node_opts t = node_opts t'.
Proof. intros t t' H. inversion H; subst; split; reflexivity. Qed.

Lemma flat_map_forest_perm : forall B (f : tree -> list B) l l',
  forest_perm l l' -> (forall x y, In x l -> sib_perm x y -> Permutation (f x) (f y)) ->
  Permutation (flat_map f l) (flat_map f l').
Proof.
  intros B f l l' [l1 [H1 H2]] Hf. apply Permutation_trans with (flat_map f l1).
  - exact (Permutation_flat_map_Forall2 sib_perm f l l1 H1 Hf).
  - apply Permutation_flat_map, H2.
Qed.

Lemma forallb_forest_perm : forall (q : tree -> bool) l l',
  forest_perm l l' -> (forall x y, In x l -> sib_perm x y -> q x = true -> q y = true) ->
  forallb q l = true -> forallb q l' = true.
Proof.
  intros q l l' [l1 [H1 H2]] Hq H. apply (Permutation_forallb q l1 l' H2). clear l' H2.
  induction H1 as [|x y l l1 Hxy Hl IH]; [reflexivity|].
  cbn in *. apply andb_true_iff in H. destruct H as [Hx Htl].
  rewrite (Hq x y (or_introl eq_refl) Hxy Hx). apply IH; [|exact Htl]. intros a b Ha. apply Hq. right. exact Ha.
Qed.

Lemma exec_sib_perm : forall c t t' pp po,
  sib_perm t t' -> Permutation (exec_node c pp po t) (exec_node c pp po t').
Proof.
  intros c. induction t as [e args|r g ch IH] using tree_ind_in; intros t' pp po H;
    inversion H as [e0|e0 a0 a' HPa|r0 g0 ch0 ch1 ch2 HF HP]; subst.
  - apply Permutation_refl.
  - cbn [exec_node display_name node_opts node_meta].
    destruct (leaf_ignored c _); [apply Permutation_refl|].
    destruct (entry_runner e); [apply Permutation_refl|].
    apply Permutation_flat_map, HPa.
  - cbn [exec_node display_name node_opts node_meta].
    apply flat_map_forest_perm; [exists ch1; split; assumption|].
    intros x y Hx. apply (IH x Hx).
Qed.

Lemma exec_forest_perm : forall c l l' pp po,
  forest_perm l l' -> Permutation (exec_forest c pp po l) (exec_forest c pp po l').
Proof.
  intros c l l' pp po H. apply flat_map_forest_perm; [exact H|]. intros x y _. apply exec_sib_perm.
Qed.

Lemma wf_sib_perm : forall t t', sib_perm t t' -> wf_node t = true -> wf_node t' = true.
Proof.
  induction t as [e args|r g ch IH] using tree_ind_in; intros t' H Hwf;
    inversion H as [e0|e0 a0 a' HPa|r0 g0 ch0 ch1 ch2 HF HP]; subst.
  - exact Hwf.
  - cbn in *. destruct (entry_runner e); [discriminate|]. exact (Permutation_forallb _ _ _ HPa Hwf).
  - apply (forallb_forest_perm wf_node ch ch2); [exists ch1; split; assumption| |exact Hwf].
    intros x y Hx. apply (IH x Hx).
Qed.

Lemma wf_forest_perm : forall l l', forest_perm l l' -> wf_forest l = true -> wf_forest l' = true.
Proof.
  intros l l' H. apply (forallb_forest_perm wf_node l l' H). intros x y _. apply wf_sib_perm.
Qed.

Lemma built_trees_wf : forall f benches groups,
  wf_forest (retain f (build_tree benches groups)) = true.
Proof. intros. apply wf_retain, wf_build_tree. Qed.

Lemma terse_eq_run_forest : forall c t pp po,
  wf_forest t = true ->
  snd (run_forest c Test pp po t) = None /\
  lines (list_forest c pp po t)
  = map (fun p => p ++ s_benchmark) (exec_paths (fst (run_forest c Test pp po t))).
Proof.
  intros c t pp po Hwf.
  destruct (run_forest_ok c Test eq_refl t pp po Hwf) as [Hp Hx].
  split; [exact Hp|]. rewrite (list_forest_ok c t pp po Hwf). unfold exec_paths. rewrite Hx.
  rewrite map_map. reflexivity.
Qed.

Lemma filter_eq_nodup : forall (l : list xcase) p,
  NoDup (map xpath l) -> In p (map xpath l) ->
  map xpath (filter (fun x => str_eqb p (xpath x)) l) = [p].
Proof.
  induction l as [|x tl IH]; intros p Hnd Hin; [contradiction|].
  cbn in Hnd. inversion Hnd as [|? ? Hnot Hnd']; subst. cbn [filter].
  destruct (str_eqb p (xpath x)) eqn:E.
  - apply str_eqb_spec in E. subst p. cbn [map]. f_equal.
    rewrite filter_none; [reflexivity|]. intros y Hy.
    destruct (str_eqb (xpath x) (xpath y)) eqn:E2; [|reflexivity].
    apply str_eqb_spec in E2. exfalso. apply Hnot. rewrite E2. apply in_map. exact Hy.
  - apply IH; [exact Hnd'|]. cbn in Hin. destruct Hin as [Hin|Hin]; [|exact Hin].
    subst p. rewrite str_eqb_refl in E. discriminate.
Qed.

Lemma NoDup_filter_map : forall (l : list xcase) q, NoDup (map xpath l) -> NoDup (map xpath (filter q l)).
Proof.
  induction l as [|x tl IH]; intros q H; [constructor|].
  cbn in H. inversion H as [|? ? Hnot Hnd]; subst. cbn [filter]. destruct (q x).
  - cbn. constructor; [|apply IH; exact Hnd]. intro Hin. apply Hnot.
    apply in_map_iff in Hin. destruct Hin as [y [Hy Hin]]. apply filter_In in Hin. rewrite <- Hy. apply in_map. apply Hin.
  - apply IH. exact Hnd.
Qed.

Definition with_filter (c : cfg) (f : str -> bool) : cfg :=
  {| c_run_ignored := c_run_ignored c; c_opts := c_opts c; c_filter := f; c_threads := c_threads c |}.

(** The ignore decision does not look at the filter. *)
Lemma exec_with_filter : forall c f pp po t, exec_node (with_filter c f) pp po t = exec_node c pp po t.
Proof.
  intros c f pp po t. revert pp po. induction t as [e args|r g ch IH] using tree_ind_in; intros pp po.
  - reflexivity.
  - cbn [exec_node]. apply flat_map_ext_in. intros x Hx. apply IH. exact Hx.
Qed.

Section RunAction.
  Variable srt : list tree -> list tree.
  Hypothesis srt_perm : forall t, forest_perm t (srt t).

  (** The shortcut of [run_action] on an empty tree cannot be observed. *)
  Lemma run_action_terse : forall c benches groups,
    run_action c srt ListTerse benches groups
    = tret (list_forest c [] None (retain (c_filter c) (build_tree benches groups))).
  Proof. intros. unfold run_action. destruct (retain _ _); reflexivity. Qed.

  Lemma run_action_run : forall c a benches groups, a <> ListTerse ->
    run_action c srt a benches groups
    = run_forest c a [] None (srt (retain (c_filter c) (build_tree benches groups))).
  Proof.
    intros c a benches groups Ha. unfold run_action. destruct (retain _ _) as [|x t]; cbn [is_nil].
    - rewrite (forest_perm_nil _ (srt_perm [])). reflexivity.
    - destruct a; congruence.
  Qed.

  Lemma run_action_exec : forall c a benches groups,
    is_list a = false -> a <> ListTerse ->
    okx (run_action c srt a benches groups)
        (exec_forest c [] None (srt (retain (c_filter c) (build_tree benches groups)))).
  Proof.
    intros c a benches groups Ha Hb. rewrite (run_action_run c a benches groups Hb).
    apply run_forest_ok; [exact Ha|]. apply (wf_forest_perm _ _ (srt_perm _)), built_trees_wf.
  Qed.

  (** Run and terse listing in terms of the unfiltered, unsorted tree: both are
      the cases of that tree whose path passes the filter. *)
  Lemma run_selected : forall c a benches groups,
    is_list a = false -> a <> ListTerse ->
    snd (run_action c srt a benches groups) = None /\
    Permutation (executed (fst (run_action c srt a benches groups)))
                (filter (fun x => c_filter c (xpath x)) (exec_forest c [] None (build_tree benches groups))).
  Proof.
    intros c a benches groups Ha Hb. destruct (run_action_exec c a benches groups Ha Hb) as [Hp Hx].
    split; [exact Hp|]. rewrite Hx, <- (exec_retain c _ _ None (wf_build_tree benches groups)).
    apply Permutation_sym, exec_forest_perm, srt_perm.
  Qed.

  Lemma terse_selected : forall c benches groups,
    lines (fst (run_action c srt ListTerse benches groups))
    = map line_of (filter (fun x => c_filter c (xpath x)) (exec_forest c [] None (build_tree benches groups))).
  Proof.
    intros. rewrite run_action_terse, <- (exec_retain c _ _ None (wf_build_tree benches groups)).
    apply list_forest_ok, built_trees_wf.
  Qed.

  Lemma terse_eq_run : forall c benches groups,
    snd (run_action c srt Test benches groups) = None /\
    Permutation (lines (fst (run_action c srt ListTerse benches groups)))
                (map (fun p => p ++ s_benchmark) (exec_paths (fst (run_action c srt Test benches groups)))).
  Proof.
    intros c benches groups.
    destruct (run_selected c Test benches groups eq_refl) as [Hp Hx]; [discriminate|].
    split; [exact Hp|]. rewrite terse_selected. unfold exec_paths. rewrite Hx, map_map. apply Permutation_refl.
  Qed.

  Lemma exact_roundtrip : forall c benches groups p,
    let t0 := build_tree benches groups in
    NoDup (map xpath (exec_forest c [] None t0)) ->
    In (p ++ s_benchmark) (lines (fst (run_action c srt ListTerse benches groups))) ->
    let c' := with_filter c (str_eqb p) in
    lines (fst (run_action c' srt ListTerse benches groups)) = [p ++ s_benchmark] /\
    snd (run_action c' srt Test benches groups) = None /\
    exec_paths (fst (run_action c' srt Test benches groups)) = [p].
  Proof.
    intros c benches groups p t0 Hnd Hin c'.
    (* under the filter [p] exactly the one case with path [p] is selected *)
    assert (Hsel : map xpath (filter (fun x => c_filter c' (xpath x)) (exec_forest c' [] None t0)) = [p]).
    { replace (exec_forest c' [] None t0) with (exec_forest c [] None t0)
        by (symmetry; apply flat_map_ext_in; intros y _; apply exec_with_filter).
      apply filter_eq_nodup; [exact Hnd|].
      rewrite terse_selected in Hin. apply in_map_iff in Hin. destruct Hin as [x [Hx Hin]].
      apply app_inv_tail in Hx. rewrite <- Hx. apply in_map. apply filter_In in Hin. apply Hin. }
    destruct (run_selected c' Test benches groups eq_refl) as [Hp Hx]; [discriminate|].
    split; [|split; [exact Hp|]].
    - rewrite terse_selected. unfold line_of.
      rewrite <- (map_map xpath (fun p => p ++ s_benchmark)). fold t0. rewrite Hsel. reflexivity.
    - apply Permutation_length_1_inv. rewrite <- Hsel. apply Permutation_sym, Permutation_map, Hx.
  Qed.
End RunAction.

(** The hypothesis on [srt] is satisfiable. *)
Example srt_identity_ok : forall t, forest_perm t ((fun x => x) t).
Proof. intro t. apply forest_perm_of_perm, Permutation_refl. Qed.

Example srt_reverse_ok : forall t, forest_perm t (rev t).
Proof. intro t. apply forest_perm_of_perm, Permutation_rev. Qed.

Lemma sort_hypothesis_satisfiable :
  (forall t, forest_perm t ((fun x => x) t)) /\ (forall t, forest_perm t (rev t)).
Proof. split; [exact srt_identity_ok|exact srt_reverse_ok]. Qed.

Lemma remove_one_some : forall s l l', remove_one s l = Some l' -> Permutation l (s :: l').
Proof.
  intros s. induction l as [|x tl IH]; intros l' H; cbn in H; [discriminate|].
  destruct (str_eqb x s) eqn:E.
  - apply str_eqb_spec in E. inversion H; subst. apply Permutation_refl.
  - destruct (remove_one s tl) as [r|] eqn:E2; [|discriminate]. inversion H; subst.
    apply Permutation_trans with (x :: s :: r); [apply perm_skip; apply IH; reflexivity|apply perm_swap].
Qed.

Lemma remove_one_none : forall s l, remove_one s l = None -> ~ In s l.
Proof.
  intros s. induction l as [|x tl IH]; intros H Hin; cbn in H; [exact Hin|].
  destruct (str_eqb x s) eqn:E; [discriminate|].
  destruct (remove_one s tl) eqn:E2; [discriminate|].
  destruct Hin as [Hin|Hin]; [subst; rewrite str_eqb_refl in E; discriminate|]. apply (IH eq_refl Hin).
Qed.

Lemma multiset_eqb_spec : forall a b, multiset_eqb a b = true <-> Permutation a b.
Proof.
  induction a as [|x tl IH]; intro b; cbn.
  - split; intro H.
    + apply is_nil_spec in H. subst. apply Permutation_refl.
    + apply Permutation_nil in H. subst. reflexivity.
  - destruct (remove_one x b) as [b'|] eqn:E; split; intro H.
    + apply IH in H. apply Permutation_trans with (x :: b'); [apply perm_skip; exact H|].
      apply Permutation_sym. apply remove_one_some. exact E.
    + apply IH. apply remove_one_some in E. apply (Permutation_cons_inv (a := x)).
      apply Permutation_trans with b; assumption.
    + discriminate.
    + exfalso. apply (remove_one_none _ _ E). apply (Permutation_in x H). left. reflexivity.
Qed.

Lemma c14_terse_sb_spec : forall terse ran,
  c14_terse_sb terse ran = true <-> Permutation terse (map (fun p => p ++ s_benchmark) ran).
Proof. intros. apply multiset_eqb_spec. Qed.

Lemma list_eqb_str_spec : forall a b, list_eqb str_eqb a b = true <-> a = b.
Proof.
  induction a as [|x a IH]; destruct b as [|y b]; cbn; split; intro H; try congruence; try discriminate.
  - apply andb_true_iff in H. destruct H as [H1 H2]. apply str_eqb_spec in H1. apply IH in H2. congruence.
  - inversion H; subst. rewrite str_eqb_refl. cbn. apply IH. reflexivity.
Qed.

Lemma c14_roundtrip_sb_spec : forall p terse ran,
  c14_roundtrip_sb p terse ran = true <-> terse = [p ++ s_benchmark] /\ ran = [p].
Proof.
  intros. unfold c14_roundtrip_sb. rewrite andb_true_iff, !list_eqb_str_spec. reflexivity.
Qed.

Lemma model_terse_sb : forall srt, (forall t, forest_perm t (srt t)) ->
  forall c benches groups,
  c14_terse_sb (lines (fst (run_action c srt ListTerse benches groups)))
               (exec_paths (fst (run_action c srt Test benches groups))) = true.
Proof.
  intros srt Hs c benches groups. apply c14_terse_sb_spec. apply (terse_eq_run srt Hs).
Qed.

Lemma list_benches_runs_nothing : forall c srt benches groups,
  snd (list_benches c srt benches groups) = None /\
  forallb (fun x => negb (runs_something x)) (fst (list_benches c srt benches groups)) = true.
Proof. intros. apply list_runs_nothing. left. reflexivity. Qed.
