(** Model/Loop.v: what the boolean specifications [c03_sb]
    and [c19_sb] mean, as propositions ([c03_sb_meaning], [c19_sb_meaning]). *)

From DivanV Require Import Base.Res Model.Loop Proofs.LoopProps Proofs.ListFacts.
Local Open Scope N_scope.

(** A boolean built with [&&], [||] and [if] means what its parts mean; the
    two theorems below are these lemmas applied along the structure of the
    specifications. *)

Lemma andb_iff a b A B : (a = true <-> A) -> (b = true <-> B) -> (a && b = true <-> A /\ B).
Proof. intros Ha Hb. rewrite Bool.andb_true_iff, Ha, Hb. reflexivity. Qed.

Lemma orb_iff a b A B : (a = true <-> A) -> (b = true <-> B) -> (a || b = true <-> A \/ B).
Proof. intros Ha Hb. rewrite Bool.orb_true_iff, Ha, Hb. reflexivity. Qed.

Lemma if_iff (g : bool) a b A B :
  (a = true <-> A) -> (b = true <-> B) -> ((if g then a else b) = true <-> if g then A else B).
Proof. destruct g; trivial. Qed.

Lemma imp_iff a b A B : (a = true <-> A) -> (b = true <-> B) -> ((if a then b else true) = true <-> (A -> B)).
Proof.
  intros Ha Hb. destruct a.
  - rewrite Hb. split; [intros HB _; exact HB|intros H; apply H, Ha; reflexivity].
  - split; [intros _ HA; apply Ha in HA; discriminate|reflexivity].
Qed.

Lemma ltb_cases_iff n m a b A B :
  (a = true <-> A) -> (b = true <-> B) ->
  ((if n <? m then a else b) = true <-> (n < m -> A) /\ (m <= n -> B)).
Proof.
  intros Ha Hb. destruct (N.ltb_spec n m) as [H|H]; [rewrite Ha|rewrite Hb]; split.
  - intros HA. split; [intros _; exact HA|intros H']. destruct (N.lt_irrefl _ (N.lt_le_trans _ _ _ H H')).
  - intros [HA _]. exact (HA H).
  - intros HB. split; [intros H'|intros _; exact HB]. destruct (N.lt_irrefl _ (N.lt_le_trans _ _ _ H' H)).
  - intros [_ HB]. exact (HB H).
Qed.

(** The guard of a specification that speaks about some configurations only. *)
Lemma guard_iff (g h b : bool) (B : Prop) : (b = true <-> B) ->
  ((if g || negb h then true else b) = true <-> (g = false -> h = true -> B)).
Proof.
  intros Hb. destruct g; [split; [discriminate|reflexivity]|].
  destruct h; [|split; [discriminate|reflexivity]].
  cbn [orb negb]. rewrite Hb. split; [intros HB _ _; exact HB|intros H; exact (H eq_refl eq_refl)].
Qed.

Lemma done_iff (d x : bool) : (if d then negb x else x) = true <-> x = negb d.
Proof. destruct d, x; split; intros H; try reflexivity; discriminate H. Qed.

Lemma all_eq_spec v l : all_eq v l = true <-> (forall x, In x l -> x = v).
Proof.
  unfold all_eq. rewrite forallb_forall. split; intros H x Hx; apply N.eqb_eq, H, Hx.
Qed.

Lemma list_eqb_spec a : forall b, list_eqb a b = true <-> a = b.
Proof.
  unfold list_eqb. induction a as [|x a IH]; intros [|y b]; cbn [length combine forallb Nat.eqb andb fst snd];
    try (split; intros H; (reflexivity || discriminate H)).
  rewrite Bool.andb_assoc, (Bool.andb_comm _ (x =? y)), <- Bool.andb_assoc.
  rewrite (andb_iff _ _ _ _ (N.eqb_eq x y) (IH b)). split; [intros [-> ->]; reflexivity|intros [= -> ->]; split; reflexivity].
Qed.

Lemma uniform_spec t l : uniform t l = true <-> uniform_p t l.
Proof.
  unfold uniform, uniform_p. rewrite forallb_forall. split; intros H o Ho; apply Nat.eqb_eq, H, Ho.
Qed.

Lemma forallb_kinds (P : ckind -> bool) (Q : ckind -> Prop) : (forall k, P k = true <-> Q k) ->
  (forallb P all_kinds = true <-> (forall k, Q k)).
Proof.
  intros HPQ. rewrite forallb_forall. split.
  - intros H k. apply HPQ, H. destruct k; cbn; tauto.
  - intros H k _. apply HPQ, H.
Qed.

Definition c03_holds (c : cfg) (t : nat) (init : N) (hist : list round_obs) (o : seen) : Prop :=
  let k := length hist in
  length (o_calls o) = t /\ length (o_sizes o) = k /\ uniform_p t hist /\
  if zero_case c then
    (* nothing runs *)
    k = 0%nat /\ (forall x, In x (o_calls o) -> x = 0) /\ length (o_samples o) = 0%nat /\
    o_stat_samples o = 0 /\ o_stat_iters o = 0
  else if c_test c then
    (* test mode: one round, one call per thread, nothing stored *)
    k = 1%nat /\ (forall x, In x (o_calls o) -> x = 1) /\ length (o_samples o) = 0%nat /\
    o_stat_samples o = 0 /\ o_stat_iters o = 0
  else
    let recorded := N.of_nat (length (o_samples o)) in
    let last_sz := last (o_sizes o) 0 in
    (* reported figures: samples = recorded, iters = recorded x size, the size
       being the number of calls each recorded sample took (the last round's) *)
    o_stat_samples o = recorded /\ o_stat_iters o = recorded * o_final_size o /\
    o_final_size o = last_sz /\ o_stat_iters o = recorded * last_sz /\
    match c_size c with
    | None => True
    | Some s =>
        let n := sample_count_of c in
        let r := ceil_div n (N.of_nat t) in
        (forall x, In x (o_sizes o) -> x = s) /\
        (forall x, In x (o_calls o) -> x = s * N.of_nat k) /\
        recorded = N.of_nat t * N.of_nat k /\
        o_final_size o = (if (k =? 0)%nat then 0 else s) /\
        (* no time limit reached before the first min(R, k) rounds => k = R = ceil(n/t)
           rounds, unless the ceiling stopped the run earlier or the floor prolonged it *)
        ((forall j, (j < N.to_nat (N.min r (N.of_nat k)))%nat -> elapsed_after c init hist j < c_max c) ->
         (N.of_nat k < r -> c_max c <= elapsed_after c init hist k) /\
         (r <= N.of_nat k ->
          c_min c <= elapsed_after c init hist (N.to_nat r) \/ c_max c <= elapsed_after c init hist (N.to_nat r) ->
          N.of_nat k = r))
    end.

Theorem c03_sb_meaning c t init hist o :
  c03_sb c t init hist o = true <-> c03_holds c t init hist o.
Proof.
  unfold c03_sb, c03_holds. cbv zeta. rewrite <- 2 Bool.andb_assoc.
  apply andb_iff; [apply Nat.eqb_eq|]. apply andb_iff; [apply Nat.eqb_eq|]. apply andb_iff; [apply uniform_spec|].
  apply if_iff; [|apply if_iff]; rewrite <- !Bool.andb_assoc.
  1, 2: apply andb_iff; [apply Nat.eqb_eq|]; apply andb_iff; [apply all_eq_spec|];
    apply andb_iff; [apply Nat.eqb_eq|]; apply andb_iff; apply N.eqb_eq.
  do 4 (apply andb_iff; [apply N.eqb_eq|]).
  destruct (c_size c) as [s|]; [|split; trivial]. rewrite <- !Bool.andb_assoc.
  apply andb_iff; [apply all_eq_spec|]. apply andb_iff; [apply all_eq_spec|].
  apply andb_iff; [apply N.eqb_eq|]. apply andb_iff; [apply N.eqb_eq|].
  apply imp_iff; [apply forallb_seq; intros j; apply N.ltb_lt|].
  apply ltb_cases_iff; [apply N.leb_le|].
  apply imp_iff; [apply orb_iff; apply N.leb_le|apply N.eqb_eq].
Qed.

Definition c19_holds (c : cfg) (init : N) (hist : list round_obs) (o : seen) : Prop :=
  let k := length hist in
  zero_case c = false -> tuned c = true ->
  (* sizes 1, 2, 4, ... up to the first passing round, then constant *)
  o_sizes o = sizes_of c hist k /\
  (* the recorded samples are those of the kept rounds, at the final size *)
  N.of_nat (length (o_samples o)) = total_len (kept_of c hist) /\
  o_samples o = expected_samples c (o_final_size o) (kept_of c hist) /\
  o_final_size o = match k with O => 0 | S k' => size_of_round c hist k' end /\
  (* every input-based counter kind: the per-iteration values of the kept samples; nothing otherwise *)
  (forall kd, qget kd (o_counts o) =
              if qget kd (c_input_counts c) then expected_counts kd (o_final_size o) (kept_of c hist) else []) /\
  (* allocation info for exactly the kept samples that allocated *)
  o_alloc_keys o = alloc_keys_from 0 (concat (kept_of c hist)) /\
  (* the rounds follow the rule (the first passing round counts, max_time covers tuning) *)
  (forall j, (j < k)%nat -> continue_after c init hist j = true) /\
  continue_after c init hist k = negb (o_done o) /\
  o_stat_samples o = N.of_nat (length (o_samples o)) /\
  o_stat_iters o = N.of_nat (length (o_samples o)) * o_final_size o.

Theorem c19_sb_meaning c init hist o :
  c19_sb c init hist o = true <-> c19_holds c init hist o.
Proof.
  unfold c19_sb, c19_holds. cbv zeta. apply guard_iff. rewrite <- !Bool.andb_assoc.
  apply andb_iff; [apply list_eqb_spec|]. apply andb_iff; [apply N.eqb_eq|].
  apply andb_iff; [apply list_eqb_spec|]. apply andb_iff; [apply N.eqb_eq|].
  apply andb_iff; [apply forallb_kinds; intros kd; apply list_eqb_spec|].
  apply andb_iff; [apply list_eqb_spec|].
  apply andb_iff; [apply forallb_seq; reflexivity|].
  apply andb_iff; [apply done_iff|]. apply andb_iff; apply N.eqb_eq.
Qed.
