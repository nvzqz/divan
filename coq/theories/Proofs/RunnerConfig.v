(** Proofs about Model/RunnerConfig.v: per-field resolution of the runner's
    scalar settings and the filter-set glue. *)
From DivanV Require Import Base.Res Model.Filter Model.Options Model.RunnerConfig
  Proofs.SplitVec Proofs.Filter Proofs.Options Proofs.ListFacts.

(** One field through builder calls, the command line, builder calls: [g]
    reads the field, [f] says what a builder call sets it to, [m] what the
    command line and environment set it to. *)
Section FieldOfChain.
  Context {A : Type}.
  Variable g : config -> A.
  Variable f : builder_call -> option A.
  Variable m : cli -> option A.
  Hypothesis Hcall : forall c b, g (apply_call c b) = match f b with Some x => x | None => g c end.
  Hypothesis Hargs : forall c a, g (config_from_matches c a) = match m a with Some x => x | None => g c end.

  Lemma last_set_snoc (l : list builder_call) (b : builder_call) :
    last_set f (l ++ [b]) = opt_or (f b) (last_set f l).
  Proof. unfold last_set. rewrite map_app, rev_app_distr. apply first_some_cons. Qed.

  Lemma field_of_calls (calls : list builder_call) : forall c,
    g (apply_calls c calls) = match last_set f calls with Some x => x | None => g c end.
  Proof.
    induction calls as [|b l IH] using rev_ind; intros c; [reflexivity|].
    unfold apply_calls in *. rewrite fold_left_app. cbn [fold_left].
    rewrite Hcall, last_set_snoc. destruct (f b); [reflexivity | apply IH].
  Qed.

  Lemma field_of_chain (before after : list builder_call) (a : cli) (c : config) :
    g (apply_calls (config_from_matches (apply_calls c before) a) after)
    = pick [last_set f after; m a; last_set f before] (g c).
  Proof.
    rewrite field_of_calls, Hargs, field_of_calls. unfold pick. cbn [first_some].
    destruct (last_set f after); [reflexivity|]. destruct (m a); [reflexivity|].
    destruct (last_set f before); reflexivity.
  Qed.
End FieldOfChain.

Lemma color_step c b : cfg_color (apply_call c b) = match call_color b with Some x => x | None => cfg_color c end.
Proof. destruct b; reflexivity. Qed.
Lemma bytes_step c b : cfg_bytes_binary (apply_call c b) = match call_bytes b with Some x => x | None => cfg_bytes_binary c end.
Proof. destruct b; reflexivity. Qed.
Lemma ignored_step c b : cfg_ignored (apply_call c b) = match call_ignored b with Some x => x | None => cfg_ignored c end.
Proof. destruct b; reflexivity. Qed.

Definition never {A : Type} (_ : builder_call) : option A := None.

Lemma last_set_never {A : Type} (calls : list builder_call) : last_set (@never A) calls = None.
Proof.
  unfold last_set. induction calls as [|b l IH]; [reflexivity|].
  cbn [map rev]. rewrite first_some_snoc, IH. reflexivity.
Qed.

Lemma field_untouched {A : Type} (g : config -> A) (m : cli -> option A)
  (Hcall : forall c b, g (apply_call c b) = g c)
  (Hargs : forall c a, g (config_from_matches c a) = match m a with Some x => x | None => g c end)
  (before after : list builder_call) (a : cli) (c : config) :
  g (apply_calls (config_from_matches (apply_calls c before) a) after) = pick [m a] (g c).
Proof. rewrite (field_of_chain g never m Hcall Hargs), !last_set_never. reflexivity. Qed.

Lemma call_independent (c : config) (b : builder_call) :
  cfg_action (apply_call c b) = cfg_action c
  /\ cfg_timer (apply_call c b) = cfg_timer c
  /\ cfg_sort (apply_call c b) = cfg_sort c
  /\ cfg_reverse (apply_call c b) = cfg_reverse c
  /\ (call_color b = None -> cfg_color (apply_call c b) = cfg_color c)
  /\ (call_bytes b = None -> cfg_bytes_binary (apply_call c b) = cfg_bytes_binary c)
  /\ (call_ignored b = None -> cfg_ignored (apply_call c b) = cfg_ignored c).
Proof. destruct b; cbn; repeat split; intros; try reflexivity; discriminate. Qed.

Lemma resolve_rejects (before after : list builder_call) (a : cli) :
  runner_config_resolve before a after = None <-> clap_accepts a = false.
Proof.
  unfold runner_config_resolve, config_with_args.
  destruct (clap_accepts a); split; intros H; try discriminate; reflexivity.
Qed.

(** Per-field resolution (the process is not refused by clap): each field is
    an instance of [field_of_chain]; what remains is to read the precedence
    list off the two or three sources the command line offers for it. *)
Lemma resolve_fields (before after : list builder_call) (a : cli) (r : config) :
  runner_config_resolve before a after = Some r ->
  cfg_action r = spec_action a
  /\ cfg_timer r = pick [a_timer a; e_timer a] TOs
  /\ cfg_sort r = pick [val_sortr a; val_sort a] SKind
  /\ cfg_reverse r = match val_sortr a, val_sort a with Some _, _ => true | None, _ => false end
  /\ cfg_color r = pick [last_set call_color after; a_color a; last_set call_color before] CAuto
  /\ cfg_bytes_binary r =
     pick [last_set call_bytes after; a_bytes_binary a; e_bytes_binary a; last_set call_bytes before] false
  /\ cfg_ignored r = pick [last_set call_ignored after; args_ignored a; last_set call_ignored before] RunNo.
Proof.
  unfold runner_config_resolve, config_with_args.
  destruct (clap_accepts a); [|discriminate].
  intros H. injection H as <-. repeat split.
  - rewrite (field_untouched cfg_action (fun a => Some (spec_action a))); [reflexivity | intros c []; reflexivity|].
    intros c a'. unfold spec_action. cbn [cfg_action config_from_matches].
    destruct (a_list a'); [|reflexivity]. destruct (a_format_terse a') as [[|]|]; reflexivity.
  - rewrite (field_untouched cfg_timer (fun a => opt_or (a_timer a) (e_timer a)));
      [|intros c []; reflexivity | reflexivity].
    destruct (a_timer a); [reflexivity|]. destruct (e_timer a); reflexivity.
  - rewrite (field_untouched cfg_sort (fun a => opt_or (val_sortr a) (val_sort a))); [|intros c []; reflexivity|].
    + destruct (val_sortr a); [reflexivity|]. destruct (val_sort a); reflexivity.
    + intros c a'. cbn [cfg_sort config_from_matches]. destruct (val_sortr a'); reflexivity.
  - rewrite (field_untouched cfg_reverse
               (fun a => match val_sortr a, val_sort a with
                         | Some _, _ => Some true | None, Some _ => Some false | None, None => None end));
      [|intros c []; reflexivity|].
    + destruct (val_sortr a); [reflexivity|]. destruct (val_sort a); reflexivity.
    + intros c a'. cbn [cfg_reverse config_from_matches].
      destruct (val_sortr a'); [reflexivity|]. destruct (val_sort a'); reflexivity.
  - rewrite (field_of_chain cfg_color call_color a_color color_step); reflexivity.
  - rewrite (field_of_chain cfg_bytes_binary call_bytes (fun a => opt_or (a_bytes_binary a) (e_bytes_binary a))
               bytes_step); [|reflexivity].
    destruct (last_set call_bytes after); [reflexivity|]. destruct (a_bytes_binary a); reflexivity.
  - rewrite (field_of_chain cfg_ignored call_ignored args_ignored ignored_step); [reflexivity|].
    intros c a'. unfold args_ignored. cbn [cfg_ignored config_from_matches].
    destruct (a_ignored a'); [reflexivity|]. destruct (a_include_ignored a'); reflexivity.
Qed.

Lemma config_spec_correct (before after : list builder_call) (a : cli) :
  runner_config_resolve before a after = config_spec before a after.
Proof.
  destruct (runner_config_resolve before a after) as [r|] eqn:E.
  - destruct (resolve_fields before after a r E) as (H1 & H2 & H3 & H4 & H5 & H6 & H7).
    unfold config_spec. rewrite <- H1, <- H2, <- H3, <- H4, <- H5, <- H6, <- H7.
    destruct (clap_accepts a) eqn:Ha; [destruct r; reflexivity|].
    apply (resolve_rejects before after) in Ha. rewrite Ha in E. discriminate.
  - apply resolve_rejects in E. unfold config_spec. rewrite E. reflexivity.
Qed.

(** Sort: on the command line the later of [--sort] / [--sortr] wins, and a
    value for both (flag or variable) is refused. *)
Lemma sort_flags_last_wins (a : cli) (s r : sorting) :
  a_sort a = Some s -> a_sortr a = Some r ->
  cli_sort a = (if a_sortr_last a then None else Some s) /\ cli_sortr a = (if a_sortr_last a then Some r else None).
Proof. intros Hs Hr. unfold cli_sort, cli_sortr. rewrite Hs, Hr. split; reflexivity. Qed.

Lemma sort_conflict_refused (a : cli) (s r : sorting) :
  val_sort a = Some s -> val_sortr a = Some r -> clap_accepts a = false.
Proof.
  intros Hs Hr. unfold clap_accepts. rewrite Hs, Hr. apply andb_false_r.
Qed.

Example resolve_example :
  let a := {| a_bench := true; a_test := false; a_list := false; a_format_terse := None; a_nextest := false;
              a_sort := Some SName; a_sortr := Some SLocation; a_sortr_last := true; e_sort := None; e_sortr := None;
              a_timer := None; e_timer := Some TTsc; a_color := Some CNever;
              a_bytes_binary := None; e_bytes_binary := Some true; a_ignored := false; a_include_ignored := true |} in
  runner_config_resolve [BColor CAlways; BRunOnlyIgnored; BBytesFormat false] a [BColor CAuto]
  = Some {| cfg_action := ABench; cfg_timer := TTsc; cfg_sort := SLocation; cfg_reverse := true; cfg_color := CAuto;
            cfg_bytes_binary := true; cfg_ignored := RunYes |}.
Proof. reflexivity. Qed.

Lemma runner_filter_halves (sb : list pfilter) (ex : bool) (pos sk : list str) (sa : list pfilter) :
  inserted_before (runner_filter_ops sb ex pos sk sa) = sb ++ map (mk_filter ex) sk ++ sa
  /\ inserted_after (runner_filter_ops sb ex pos sk sa) = map (mk_filter ex) pos.
Proof.
  unfold inserted_before, inserted_after, runner_filter_ops, cli_ops.
  rewrite <- (app_nil_r (map _ sa)), <- app_assoc. split.
  - rewrite !(inserted_tagged_app negb). cbn [negb app filter map]. rewrite !map_id, app_nil_r. reflexivity.
  - rewrite !(inserted_tagged_app (fun b => b)). cbn [app filter map]. apply app_nil_r.
Qed.

Lemma runner_filter_glue (matches : str -> str -> bool)
  (sb : list pfilter) (ex : bool) (pos sk : list str) (sa : list pfilter) (p : str) :
  runner_filter_is_match matches sb ex pos sk sa p = Ok (runner_filter_spec matches sb ex pos sk sa p).
Proof.
  unfold runner_filter_is_match. rewrite is_match_correct, is_match_spec_halves.
  destruct (runner_filter_halves sb ex pos sk sa) as [-> ->].
  unfold runner_filter_spec. rewrite !existsb_app, !existsb_map, orb_assoc. destruct pos; reflexivity.
Qed.
