(** C20: the painted tree parses back to the skeleton of the picture.
    Part 2: from lines to tokens, from tokens to the tree. *)
From DivanV Require Import Base.Res Model.Painter Model.DriverPaint Model.Parse
  Proofs.Painter Proofs.PaintDriver Proofs.PaintParse Proofs.ListFacts.

Definition cells_sk (c : option (list str)) : list str :=
  match c with None => [] | Some row => map trim row end.

Definition tok_ok (l : lspec) (t : token) : Prop :=
  match l with
  | LTop n c => exists payload, t = TTop payload /\ split_payload payload = (n, cells_sk c)
  | LNode fl last n c =>
    exists payload, t = TNode fl last payload /\ split_payload payload = (n, cells_sk c)
  | LRow fl last row =>
    exists line t', t = TRow line /\ strip_prefix (row_prefix fl last) line = Some t' /\
                    map trim (split_on c_bar t') = map trim row
  | LBlank => t = TBlank
  end.

(** What the parser needs of the picture; [picture_okb] (Model/PaintOk.v) is its
    boolean form. *)
Definition name_ok (n : str) : Prop := plain n /\ name_tail_ok n = true.

Definition cells_ok (c : option (list str)) : Prop :=
  match c with
  | None => True
  | Some row => Forall nobar row /\ Forall tame row /\ row_visible row
  end.

Definition spec_ok (l : lspec) : Prop :=
  match l with
  | LTop n c => name_ok n /\ cells_ok c /\ exists a r, n = a :: r /\ a <> sp
  | LNode _ _ n c => name_ok n /\ cells_ok c
  | LRow _ _ row => Forall nobar row /\ Forall tame row
  | LBlank => True
  end.

Lemma tail_payload : forall n c tail,
  name_tail_ok n = true -> cells_ok c -> tail_ok c tail ->
  split_payload (n ++ tail) = (n, cells_sk c) /\ tame tail.
Proof.
  intros n c tail Hn Hc Ht. unfold split_payload.
  destruct c as [row|]; cbn [tail_ok cells_ok cells_sk] in *.
  - destruct Ht as (k & s & Hk & -> & Sh). destruct Hc as (Hnb & Htm & Hv).
    split.
    + rewrite take_name_spec; [|exact Hn|].
      * unfold parse_cells. pose proof (row_trim_visible row s k Sh Hv) as Hne.
        destruct (trim (spaces k ++ s)); [congruence|].
        rewrite (row_cells row s Sh Hnb k). reflexivity.
      * right. destruct k as [|[|k]]; [lia | lia|]. eexists. reflexivity.
    + apply tame_app; [apply tame_spaces | eapply row_shape_tame; eauto].
  - destruct Ht as (k & -> & Hk). split; [|apply tame_spaces].
    rewrite take_name_spec; [|exact Hn|].
    + unfold parse_cells. rewrite trim_spaces. reflexivity.
    + destruct Hk as [->|Hk]; [left; reflexivity|]. right.
      destruct k as [|[|k]]; [lia | lia|]. eexists. reflexivity.
Qed.

(** Continuation rows belong to the node line above them: a row line has no
    glyph (it is never read as a node line), repeats the units of that node's
    ancestors, has a bar in the node's own column iff the node is not the last
    child, and its cells are recovered. *)
Lemma row_line : forall fl last row line,
  Forall nobar row -> Forall tame row -> line_ok (LRow fl last row) line ->
  tame line /\ classify line = TRow line /\
  exists t', strip_prefix (row_prefix fl last) line = Some t' /\
             map trim (split_on c_bar t') = map trim row.
Proof.
  intros fl last row line Hnb Htm (k & s & Hk & -> & Sh).
  assert (Htame : tame (units_str fl ++ (if last then [] else [c_bar]) ++ spaces k ++ s)).
  { apply tame_app; [apply tame_units|]. apply tame_app.
    - destruct last; [apply tame_nil | apply tame_cons; [apply tame_bar | apply tame_nil]].
    - apply tame_app; [apply tame_spaces | exact (row_shape_tame row s Sh Htm)]. }
  split; [exact Htame|]. rewrite (classify_tame _ Htame).
  destruct k as [|[|k]]; [lia | lia|].
  split.
  - (* the line begins with a space or a bar *)
    destruct fl as [|[] fl']; [destruct last|..]; reflexivity.
  - exists (spaces k ++ s). split; [|apply row_cells; assumption].
    replace (units_str fl ++ (if last then [] else [c_bar]) ++ spaces (S (S k)) ++ s)
      with (row_prefix fl last ++ spaces k ++ s)
      by (unfold row_prefix; rewrite <- !app_assoc; destruct last; reflexivity).
    apply strip_prefix_app.
Qed.

Lemma line_tok : forall l line, spec_ok l -> line_ok l line -> tok_ok l (classify line) /\ no_nl line.
Proof.
  intros l line Hs Hl. destruct l as [n c | fl last n c | fl last row |]; cbn [spec_ok tok_ok] in *.
  - destruct Hs as (Hn & Hc & a & r & -> & Ha). destruct Hl as (tail & -> & Ht).
    destruct (tail_payload _ _ _ (proj2 Hn) Hc Ht) as [Hsp Htt].
    assert (Htame : tame ((a :: r) ++ tail)) by (apply tame_app; [apply plain_tame, Hn | exact Htt]).
    split; [|apply tame_no_nl; exact Htame].
    rewrite classify_tame by exact Htame. cbn [app other_token].
    destruct Hn as [Hp _]. destruct (Hp a (or_introl eq_refl)) as (_ & Hb & _).
    destruct (N.eqb_spec a sp); [congruence|]. destruct (N.eqb_spec a c_bar); [congruence|].
    eexists. split; [reflexivity | exact Hsp].
  - destruct Hs as (Hn & Hc). destruct Hl as (tail & -> & Ht).
    destruct (tail_payload _ _ _ (proj2 Hn) Hc Ht) as [Hsp Htt].
    split.
    + rewrite classify_node. eexists. split; [reflexivity | exact Hsp].
    + apply notin_app; [apply tame_no_nl, tame_units|].
      apply notin_app; [destruct last; intros H; cbn in H; intuition discriminate|].
      apply notin_app; [apply tame_no_nl, plain_tame, Hn | apply tame_no_nl, Htt].
  - destruct Hs as (Hnb & Htm).
    destruct (row_line fl last row line Hnb Htm Hl) as (Ht & Ec & t' & Es & Em).
    split; [exists line, t'; auto | apply tame_no_nl, Ht].
  - cbn in Hl. subst. split; [reflexivity | intros []].
Qed.

Lemma lines_toks : forall specs ls,
  Forall spec_ok specs -> Forall2 line_ok specs ls ->
  Forall2 tok_ok specs (map classify ls) /\ Forall no_nl ls.
Proof.
  intros specs ls Hs H. induction H as [|l line specs ls Hl _ IH]; [split; constructor|].
  inversion Hs; subst. destruct (line_tok l line H1 Hl) as [Ht Hn]. destruct (IH H2) as [A B].
  split; constructor; auto.
Qed.

(** What may follow the lines of a node at depth [d]: not a row, and no node
    line that is deeper. *)
Definition hd_ok (d : nat) (toks : list token) : Prop :=
  match toks with
  | TNode us _ _ :: _ => length us <= d
  | TRow _ :: _ => False
  | _ => True
  end.

Lemma hd_ok_weaken : forall d d' toks, d <= d' -> hd_ok d toks -> hd_ok d' toks.
Proof. intros d d' [|[] ?] Hle H; cbn in *; auto. lia. Qed.

Lemma bools_eqb_refl : forall l, bools_eqb l l = true.
Proof. induction l as [|[] r IH]; cbn; auto. Qed.

Lemma p_rows_ok : forall fl last rows toks d rest,
  Forall2 tok_ok (map (LRow fl last) rows) toks -> hd_ok d rest ->
  p_rows (row_prefix fl last) (toks ++ rest) = Some (map (map trim) rows, rest).
Proof.
  induction rows as [|row r IH]; intros toks d rest H Hr.
  - inversion H; subst. cbn [app map]. destruct rest as [|[] ?]; try reflexivity. contradiction.
  - cbn [map] in H. inversion H as [|? t ? toks' Ht Hrest]; subst.
    destruct Ht as (line & t' & -> & Es & Ec). cbn [app p_rows].
    rewrite Es, (IH toks' d rest Hrest Hr), Ec. reflexivity.
Qed.

Lemma lay_kids_head : forall fl kids toks,
  kids <> [] -> Forall2 tok_ok (lay_kids fl kids) toks ->
  exists l payload toks', toks = TNode fl l payload :: toks'.
Proof.
  intros fl [|[n c rows kids'] r] toks Hne H; [congruence|].
  cbn [lay_kids] in H. rewrite lay_node_eq in H. cbn [app] in H.
  inversion H as [|? t ? toks' Ht _]; subst. destruct Ht as (payload & -> & _). eauto.
Qed.

Lemma hd_ok_lay : forall fl kids toks rest d,
  Forall2 tok_ok (lay_kids fl kids) toks -> length fl <= d -> hd_ok d rest ->
  hd_ok d (toks ++ rest).
Proof.
  intros fl kids toks rest d H Hd Hr. destruct kids as [|k r].
  - inversion H; subst. exact Hr.
  - destruct (lay_kids_head fl (k :: r) toks) as (l & payload & toks' & ->); [congruence | exact H|].
    exact Hd.
Qed.

Lemma next_child_no : forall d rest, hd_ok d rest -> next_is_child (S d) rest = false.
Proof.
  intros d [|[] ?] H; cbn in *; auto. apply PeanoNat.Nat.eqb_neq. lia.
Qed.

(** The [if next_is_child ...] step that [p_nodes] and [p_top] share. *)
Lemma kids_block : forall f fl d kids toks rest,
  d = length fl -> Forall2 tok_ok (lay_kids fl kids) toks -> next_is_child d rest = false ->
  (kids <> [] -> p_nodes f fl (toks ++ rest) = Some (map sk_of_pic kids, rest)) ->
  (if next_is_child d (toks ++ rest) then p_nodes f fl (toks ++ rest) else Some ([], toks ++ rest))
  = Some (map sk_of_pic kids, rest).
Proof.
  intros f fl d kids toks rest -> H Hr Hp. destruct kids as [|k r].
  - inversion H; subst. cbn [app map]. rewrite Hr. reflexivity.
  - replace (next_is_child (length fl) (toks ++ rest)) with true; [apply Hp; congruence|].
    destruct (lay_kids_head fl (k :: r) toks) as (l & payload & toks' & ->); [congruence | exact H|].
    symmetry. apply PeanoNat.Nat.eqb_refl.
Qed.

Lemma p_nodes_kids : forall fuel kids fl toks rest,
  kids <> [] -> Forall2 tok_ok (lay_kids fl kids) toks -> hd_ok (length fl) rest ->
  length toks <= fuel ->
  p_nodes fuel fl (toks ++ rest) = Some (map sk_of_pic kids, rest).
Proof.
  induction fuel as [|f IH]; intros kids fl toks rest Hne H Hr Hlen.
  - destruct (lay_kids_head fl kids toks Hne H) as (l & payload & toks' & ->). cbn in Hlen. lia.
  - destruct kids as [|[n c rows kids'] r]; [congruence|]. clear Hne.
    cbn [lay_kids] in H. rewrite lay_node_eq in H.
    set (last := match r with [] => true | _ :: _ => false end) in *.
    apply Forall2_app_inv_l in H. destruct H as (tnode & tsibs & Hnode & Hsibs & ->).
    cbn [app] in Hnode. inversion Hnode as [|? t0 ? tbody Ht0 Hbody]; subst.
    destruct Ht0 as (payload & -> & Esp).
    apply Forall2_app_inv_l in Hbody. destruct Hbody as (trows & tkids & Hrows & Hkids & ->).
    rewrite !app_length in Hlen. cbn [length] in Hlen. rewrite app_length in Hlen.
    cbn [app p_nodes]. rewrite bools_eqb_refl, Esp, <- !app_assoc.
    assert (Hsib : hd_ok (length fl) (tsibs ++ rest)) by (eapply hd_ok_lay; eauto).
    assert (Hfl : S (length fl) = length (fl ++ [negb last])) by (rewrite app_length; cbn; lia).
    assert (Hkid : hd_ok (S (length fl)) (tkids ++ tsibs ++ rest)).
    { eapply hd_ok_lay; [exact Hkids | lia | eapply hd_ok_weaken; [|exact Hsib]; lia]. }
    rewrite (p_rows_ok fl last rows trows _ _ Hrows Hkid).
    rewrite (kids_block f _ _ kids' tkids (tsibs ++ rest) Hfl Hkids (next_child_no _ _ Hsib)).
    2:{ intros Hne. apply IH; [exact Hne | exact Hkids | | lia].
        rewrite <- Hfl. eapply hd_ok_weaken; [|exact Hsib]. lia. }
    destruct r as [|k2 r']; subst last; cbn match.
    + inversion Hsibs; subst. reflexivity.
    + rewrite (IH (k2 :: r') fl tsibs rest) by (congruence || assumption || lia). reflexivity.
Qed.

Lemma p_top_ok : forall pics fuel toks,
  Forall (fun p => match p with Pic _ _ rows _ => rows = [] end) pics ->
  Forall2 tok_ok (layout pics) toks -> length toks < fuel ->
  p_top fuel toks = Some (map sk_of_pic pics).
Proof.
  induction pics as [|[n c rows kids] r IH]; intros fuel toks Hrows H Hlen.
  - inversion H; subst. destruct fuel; [lia|]. reflexivity.
  - cbn [layout flat_map lay_top] in H. fold (layout r) in H.
    inversion Hrows as [|? ? Hr0 Hrows']; subst.
    cbn [app] in H. inversion H as [|? t0 ? tbody Ht0 Hbody]; subst.
    destruct Ht0 as (payload & -> & Esp).
    rewrite <- app_assoc in Hbody.
    apply Forall2_app_inv_l in Hbody. destruct Hbody as (tkids & trest & Hkids & Hrest & ->).
    cbn [app] in Hrest. inversion Hrest as [|? tb ? tmore Htb Hmore]; subst. cbn in Htb. subst tb.
    destruct fuel as [|f]; [lia|]. cbn [length] in Hlen. rewrite app_length in Hlen. cbn [length] in Hlen.
    cbn [p_top]. rewrite Esp.
    rewrite (kids_block f [] 0 kids tkids (TBlank :: tmore) eq_refl Hkids eq_refl).
    2:{ intros Hne. apply p_nodes_kids; [exact Hne | exact Hkids | exact I | lia]. }
    rewrite (IH f tmore Hrows' Hmore) by lia. reflexivity.
Qed.

(** Every selected tree, of any depth and fan-out, whose picture satisfies
    the parser's requirements, is painted so that it parses back to exactly
    its skeleton. *)
Theorem parse_render : forall a t,
  forallb is_group t = true -> Forall wf_node t ->
  Forall spec_ok (layout (picture a t)) ->
  exists p out, paint a t = Ok (p, out) /\ parse out = Some (skeleton a t).
Proof.
  intros a t Hg Hwf Hok.
  destruct (paint_layout a t Hg Hwf) as (p & out & E & _ & _ & ls & -> & F).
  exists p, (unlines ls). split; [exact E|].
  destruct (lines_toks _ _ Hok F) as [Ht Hn].
  unfold parse. rewrite (lines_unlines ls Hn). unfold parse_lines, skeleton.
  apply p_top_ok; [|exact Ht | lia].
  unfold picture. rewrite Forall_map, Forall_forall. intros n Hin.
  rewrite forallb_forall in Hg. specialize (Hg n Hin). destruct n; [reflexivity | discriminate].
Qed.
