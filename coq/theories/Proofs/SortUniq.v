(** Uniqueness of the sorted permutation.  Up to ties for a total preorder: two
    sorted permutations of the same list agree position by position up to
    [Equal] — the output of any correct sort is determined except inside tie
    classes.  Exactly for a strict order, where the reversed comparator then
    gives exactly the reversed list. *)

From Coq Require Import Permutation.
From DivanV Require Import Base.Res Model.SortBy Proofs.SortCmp.
Local Open Scope N_scope.

Section UpToTies.
Context {A : Type}.
Variable P : A -> Prop.
Variable c : A -> A -> comparison.
Hypothesis T : tpo_on P c.

Lemma ssorted_remove : forall p x q, ssorted c (p ++ x :: q) -> ssorted c (p ++ q).
Proof.
  induction p as [|y p IH]; intros x q H; simpl in *.
  - destruct H as [_ H]. exact H.
  - destruct H as [Hy H]. split; [|eapply IH; eauto].
    apply Forall_app in Hy. destruct Hy as [Hp Hq]. inversion Hq; subst.
    apply Forall_app. split; assumption.
Qed.

Lemma ssorted_prefix : forall l1 l2, ssorted c (l1 ++ l2) -> ssorted c l1.
Proof.
  induction l1 as [|x r IH]; intros l2 H; simpl in *; [exact I|].
  destruct H as [Hx H]. apply Forall_app in Hx. split; [tauto|eapply IH; eauto].
Qed.

Lemma ssorted_head_le : forall x r y, P x -> ssorted c (x :: r) -> In y (x :: r) -> c x y <> Gt.
Proof.
  intros x r y Px [Sx _] [<-|Hin].
  - rewrite (tpo_refl P c T x Px). discriminate.
  - exact (proj1 (Forall_forall _ _) Sx y Hin).
Qed.

Definition tied (x y : A) : Prop := c x y = Eq.

Lemma F2_tied_refl : forall l, Forall P l -> Forall2 tied l l.
Proof.
  induction l as [|x r IH]; intros H; [constructor|].
  inversion H; subst. constructor; [apply (tpo_refl P c T); assumption|auto].
Qed.

Lemma F2_tied_trans : forall l1 l2 l3, Forall P l1 -> Forall P l2 -> Forall P l3 ->
  Forall2 tied l1 l2 -> Forall2 tied l2 l3 -> Forall2 tied l1 l3.
Proof.
  induction l1 as [|x r IH]; intros l2 l3 P1 P2 P3 H12 H23.
  - inversion H12; subst. inversion H23; subst. constructor.
  - inversion H12 as [|? y ? r2 Hxy Hr]; subst. inversion H23 as [|? z ? r3 Hyz Hr']; subst.
    inversion P1; inversion P2; inversion P3; subst.
    constructor; [apply (tpo_eq_trans P c T x y z); assumption|].
    apply (IH r2 r3); assumption.
Qed.

(** In a sorted list [y :: p ++ [x]] with [x ~ y] everything is tied with [y]:
    shifting [y] behind [p] changes nothing up to ties. *)
Lemma shift_tied : forall p y x, P y -> P x -> Forall P p ->
  ssorted c (y :: p ++ [x]) -> c y x = Eq ->
  Forall2 tied (y :: p) (p ++ [x]).
Proof.
  induction p as [|e p IH]; intros y x Py Px Pp S E; simpl.
  - constructor; [exact E|constructor].
  - inversion Pp as [|? ? Pe Pp']; subst.
    destruct S as [Sy [Se Sp]].
    assert (Hye : c y e <> Gt) by (inversion Sy; assumption).
    assert (Hex : c e x <> Gt).
    { apply (proj1 (Forall_forall _ _) Se). apply in_or_app. right. left. reflexivity. }
    assert (Eye : c y e = Eq).
    { apply (tpo_le_antisym P c T); auto.
      (* e <= x ~ y *)
      rewrite <- (tpo_eq_r P c T y x e Py Px Pe E) in Hex. exact Hex. }
    constructor; [exact Eye|].
    apply IH; auto.
    + split; [exact Se|exact Sp].
    + rewrite <- (tpo_eq_l P c T y e x Py Pe Px Eye). exact E.
Qed.

Theorem sorted_perm_unique_upto_ties : forall l1 l2,
  Forall P l1 -> Permutation l1 l2 -> ssorted c l1 -> ssorted c l2 -> Forall2 tied l1 l2.
Proof.
  induction l1 as [|x r1 IH]; intros l2 P1 HP S1 S2.
  - apply Permutation_nil in HP. subst. constructor.
  - destruct l2 as [|y r2]; [apply Permutation_sym, Permutation_nil in HP; discriminate|].
    pose proof (Permutation_Forall HP P1) as P2.
    inversion P1 as [|? ? Px Pr1]; subst. inversion P2 as [|? ? Py Pr2]; subst.
    assert (Hin2 : In x (y :: r2)) by (eapply Permutation_in; [exact HP|left; reflexivity]).
    (* the two heads are minima of the same elements *)
    assert (Exy : c x y = Eq).
    { apply (tpo_le_antisym P c T); auto.
      - apply (ssorted_head_le x r1); auto.
        eapply Permutation_in; [apply Permutation_sym; exact HP|left; reflexivity].
      - apply (ssorted_head_le y r2); auto. }
    destruct Hin2 as [Heq|Hin].
    + subst y. constructor; [exact Exy|]. apply IH; auto.
      * eapply Permutation_cons_inv; eauto.
      * apply S1.
      * apply S2.
    + apply in_split in Hin. destruct Hin as (p & q & ->).
      (* r1 is a permutation of y :: p ++ q, which is sorted *)
      assert (HP' : Permutation r1 (y :: p ++ q)).
      { apply (Permutation_cons_inv (a := x)).
        eapply perm_trans; [exact HP|]. apply Permutation_sym, (Permutation_middle (y :: p)). }
      assert (S' : ssorted c (y :: p ++ q)) by exact (ssorted_remove (y :: p) x q S2).
      pose proof (IH (y :: p ++ q) Pr1 HP' (proj2 S1) S') as H1.
      apply Forall_app in Pr2. destruct Pr2 as [Pp Pxq]. inversion Pxq as [|? ? _ Pq]; subst.
      (* x :: r1 ~ x :: y :: p ++ q ~ y :: p ++ x :: q *)
      apply (F2_tied_trans (x :: r1) (x :: y :: p ++ q) (y :: p ++ x :: q)); auto.
      * constructor; [exact Px|]. constructor; [exact Py|]. apply Forall_app. split; assumption.
      * constructor; [apply (tpo_refl P c T); exact Px|exact H1].
      * constructor; [exact Exy|].
        change (Forall2 tied ((y :: p) ++ q) (p ++ x :: q)).
        replace (p ++ x :: q) with ((p ++ [x]) ++ q) by (rewrite <- app_assoc; reflexivity).
        apply Forall2_app; [|apply F2_tied_refl; exact Pq].
        apply shift_tied; auto.
        -- apply (ssorted_prefix _ q). simpl. rewrite <- app_assoc. exact S2.
        -- apply (tpo_eq_sym P c T); assumption.
Qed.

(** When only an element itself is [Eq] to it (strict total order) the sorted
    permutation is unique: the result of sorting does not depend on the algorithm. *)
Corollary sorted_perm_unique :
  (forall x y, P x -> P y -> c x y = Eq -> x = y) ->
  forall l1 l2, Forall P l1 -> Permutation l1 l2 -> ssorted c l1 -> ssorted c l2 -> l1 = l2.
Proof.
  intros Strict l1 l2 P1 HP S1 S2.
  pose proof (Permutation_Forall HP P1) as P2.
  pose proof (sorted_perm_unique_upto_ties l1 l2 P1 HP S1 S2) as F. clear HP S1 S2.
  induction F as [|x y r1 r2 E F IH]; [reflexivity|].
  inversion P1; inversion P2; subst. f_equal; [apply Strict; assumption|apply IH; assumption].
Qed.

Corollary isort_unique :
  (forall x y, P x -> P y -> c x y = Eq -> x = y) ->
  forall l l', Forall P l -> Permutation l l' -> ssorted c l' -> l' = isort c l.
Proof.
  intros Strict l l' Pl HP S. symmetry. apply (sorted_perm_unique Strict).
  - apply isort_Forall. exact Pl.
  - eapply perm_trans; [apply Permutation_sym, isort_perm|exact HP].
  - apply (isort_sorted P c T). exact Pl.
  - exact S.
Qed.

End UpToTies.

Lemma rev_isort_unique {A} (P : A -> Prop) (c : A -> A -> comparison) :
  tpo_on P c -> (forall x y, P x -> P y -> c x y = Eq -> x = y) ->
  forall l l', Forall P l -> Permutation l l' -> ssorted (revc true c) l' -> l' = rev (isort c l).
Proof.
  intros T Strict l l' Pl HP S.
  apply (sorted_perm_unique P (revc true c) (tpo_rev P c true T)).
  - intros x y Px Py E. apply Strict; auto. apply (revc_eq true). exact E.
  - exact (Permutation_Forall HP Pl).
  - eapply perm_trans; [apply Permutation_sym; exact HP|].
    eapply perm_trans; [apply isort_perm|apply Permutation_rev].
  - exact S.
  - apply (ssorted_rev P c T); [apply isort_Forall; exact Pl|apply (isort_sorted P c T); exact Pl].
Qed.
