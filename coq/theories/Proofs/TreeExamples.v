(** The hypotheses of the C12 / C14 / C17 theorems are satisfiable by non-trivial values. *)
From Coq Require Import Permutation.
From DivanV Require Import Base.Res Model.Registry Model.Tree Model.Driver
  Proofs.DriverExec Proofs.Expand Proofs.C14Refuted.
Local Open Scope N_scope.

(** C14_exact_roundtrip: unique paths and a listed path. *)
Example exact_roundtrip_hypotheses :
  let p := [99; 58; 58; 103; 58; 58; 107] in
  NoDup (map xpath (exec_forest (r_cfg RINo) [] None (build_tree [r_kept] [r_group]))) /\
  In (p ++ s_benchmark) (lines (fst (run_action (r_cfg RINo) (fun t => t) ListTerse [r_kept] [r_group]))).
Proof.
  split.
  - vm_compute. constructor; [intros []|constructor].
  - vm_compute. left. reflexivity.
Qed.

(** Distinct keys as two groups in two modules spell them ([group_key]); C12_order_independent asks this of [attach_key]. *)
Definition ex_group2 : group_entry :=
  {| g_id := 12; g_meta := r_meta [104] r_c None; g_generic := None |}.
Example order_independent_hypotheses :
  NoDup (map group_key [r_group; ex_group2]) /\ Permutation [r_group; ex_group2] [ex_group2; r_group].
Proof.
  split.
  - vm_compute. constructor; [intros [H|[]]; discriminate|constructor; [intros []|constructor]].
  - apply perm_swap.
Qed.

(** C12_expand_exact / C17_once_shared: a generic function over two types and three literal consts with arguments. *)
Definition ex_decl : bench_decl :=
  {| bd_raw := [102]; bd_name := None; bd_line := 3; bd_col := 1; bd_opts := None;
     bd_args := Some [VInt 1; VInt 2];
     bd_types := Some [[105]; [106]]; bd_consts := Some (CLit [[49]; [50]; [51]]) |}.
Example expand_exact_hypotheses :
  generic_is_empty (bd_types ex_decl) (bd_consts ex_decl) = false /\
  (bd_types ex_decl <> None \/ bd_consts ex_decl <> None) /\
  consts_compile (bd_consts ex_decl) /\
  (exists rows, expand_bench r_c 0 ex_decl
                = Ok ([], [{| g_id := 0; g_meta := bench_meta r_c ex_decl; g_generic := Some rows |}], 7)
                /\ length (concat rows) = 6%nat).
Proof.
  split; [reflexivity|]. split; [left; discriminate|]. split; [exact I|].
  eexists. split; [vm_compute; reflexivity|reflexivity].
Qed.

(** C12_extern_consts: 20 values compile, 21 do not. *)
Example extern_consts_boundary :
  extern_consts (repeat [49] 20) = Ok (repeat [49] 20) /\ extern_consts (repeat [49] 21) = Panic Other.
Proof. split; vm_compute; reflexivity. Qed.

(** C17_label_value: running actions. *)
Example running_actions : (is_list Test = false /\ Test <> ListTerse) /\ (is_list Bench = false /\ Bench <> ListTerse).
Proof. repeat split; discriminate. Qed.
