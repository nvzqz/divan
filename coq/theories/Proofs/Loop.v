(** Model/Loop.v: the state of the loop after any executed prefix of a history
    is a closed-form function of that prefix ([spec_state]), the loop condition
    is the documented rule ([continue_of]), and a run stops at the least prefix
    at which the rule says stop ([run_spec], [bench_loop_spec]).  Everything
    else (Proofs/LoopProps.v) is read off these. *)

From DivanV Require Import Base.Res Generated.Consts Model.Timestamp Model.Loop Proofs.ListFacts.
Local Open Scope N_scope.

(** The obligations of C03, C04 and C19 on Generated/Consts.v: the constants
    read from the source are the documented ones. *)
Lemma consts_loop :
  default_sample_count = 100 /\ tune_threshold = 100 /\ min_progress_picos = 1000 /\
  tune_factor = 2 /\ max_time_cmp_is_ge = true /\ min_time_cmp_is_lt = true.
Proof. repeat split; reflexivity. Qed.

Lemma consts_c04 : max_time_cmp_is_ge = true /\ min_time_cmp_is_lt = true /\ min_progress_picos = 1000.
Proof. repeat split; reflexivity. Qed.

Lemma consts_c19 : tune_threshold = 100 /\ tune_factor = 2.
Proof. split; reflexivity. Qed.

Lemma zero_case_false c : zero_case c = false <-> c_max c <> 0 /\ has_samples c = true.
Proof.
  unfold zero_case. rewrite Bool.orb_false_iff, N.eqb_neq, Bool.negb_false_iff. reflexivity.
Qed.

Lemma bench_loop_zero c init hist : zero_case c = true -> bench_loop c init hist = Ok (Done (init_state c)).
Proof. unfold bench_loop, zero_case. intros ->. reflexivity. Qed.

Lemma bench_loop_run c init hist : zero_case c = false -> bench_loop c init hist = run c init (init_state c) hist.
Proof. unfold bench_loop, zero_case. intros ->. reflexivity. Qed.

Lemma has_samples_count c : has_samples c = true -> sample_count_of c <> 0.
Proof.
  unfold has_samples, sample_count_of, opt_is. destruct (c_count c) as [n|]; [|discriminate].
  destruct (N.eqb_spec n 0); [discriminate|intros _; assumption].
Qed.

Lemma has_samples_size c s : has_samples c = true -> c_size c = Some s -> s <> 0.
Proof.
  unfold has_samples, opt_is. intros H Hs. rewrite Hs in H. destruct (N.eqb_spec s 0); [|assumption].
  rewrite Bool.andb_false_r in H. discriminate.
Qed.

Lemma tsc_duration_ok b a f d : tsc_duration b a f = Ok d -> d = dur_ps f b a.
Proof.
  unfold tsc_duration, dur_ps, checked_mul, checked_div. destruct (b <? a).
  - intros [= <-]. reflexivity.
  - destruct (_ <? 2 ^ 128); cbn [bind]; [|discriminate].
    destruct (f =? 0); [discriminate|]. intros [= <-]. reflexivity.
Qed.

Definition dur_of (c : cfg) (r : raw) : N := dur_ps (c_freq c) (r_end r) (r_start r).

Lemma map_res_raw c obs durs :
  map_res (raw_duration c) obs = Ok durs -> durs = map (dur_of c) obs.
Proof.
  revert durs. induction obs as [|r obs IH]; intros durs H; cbn [map_res] in H.
  - injection H as <-. reflexivity.
  - unfold raw_duration at 1 in H.
    destruct (tsc_duration (r_end r) (r_start r) (c_freq c)) as [d|p] eqn:E; cbn [bind] in H; [|discriminate].
    destruct (map_res (raw_duration c) obs) as [ds|p]; cbn [bind] in H; [|discriminate].
    injection H as <-. cbn [map]. f_equal; [exact (tsc_duration_ok _ _ _ _ E)|exact (IH _ eq_refl)].
Qed.

Definition with_dur (c : cfg) (l : list raw) : list (raw * N) := map (fun r => (r, dur_of c r)) l.

Lemma combine_with_dur c l : combine l (map (dur_of c) l) = with_dur c l.
Proof. induction l as [|x l IH]; cbn; [reflexivity|]. f_equal. exact IH. Qed.

Lemma with_dur_app c a b : with_dur c (a ++ b) = with_dur c a ++ with_dur c b.
Proof. apply map_app. Qed.

Lemma length_with_dur c l : length (with_dur c l) = length l.
Proof. apply map_length. Qed.

Lemma record_fold c size l : forall sto rem,
  fold_left (record_step c size) l (sto, rem) =
  (fold_left (record_one c size) l sto, option_map (fun x => x - N.of_nat (length l)) rem).
Proof.
  induction l as [|x l IH]; intros sto rem; cbn [fold_left length].
  - destruct rem; cbn [option_map]; [|reflexivity]. rewrite N.sub_0_r. reflexivity.
  - unfold record_step at 2. cbn [fst snd]. rewrite IH. f_equal.
    destruct rem; cbn [option_map]; [|reflexivity].
    rewrite Nat2N.inj_succ, <- N.add_1_l, N.sub_add_distr. reflexivity.
Qed.

Lemma record_one_samples c size l : forall sto,
  st_samples (fold_left (record_one c size) (with_dur c l) sto) =
  st_samples sto ++ map (fun r => sample_duration c size r (dur_of c r)) l.
Proof.
  induction l as [|r l IH]; intros sto; cbn [with_dur map fold_left].
  - rewrite app_nil_r. reflexivity.
  - fold (with_dur c l). rewrite IH. cbn [record_one st_samples]. rewrite <- app_assoc. reflexivity.
Qed.

Lemma qget_qmap3 {A B C D} (f : A -> B -> C -> D) a b c k :
  qget k (qmap3 f a b c) = f (qget k a) (qget k b) (qget k c).
Proof. destruct k; reflexivity. Qed.

Lemma record_one_counts c size k l : forall sto,
  qget k (st_counts (fold_left (record_one c size) (with_dur c l) sto)) =
  qget k (st_counts sto) ++
  (if qget k (c_input_counts c) then map (fun r => (qget k (r_ctotal r) / size) mod 2 ^ 64) l else []).
Proof.
  induction l as [|r l IH]; intros sto; cbn [with_dur map fold_left].
  - destruct (qget k (c_input_counts c)); rewrite app_nil_r; reflexivity.
  - fold (with_dur c l). rewrite IH. cbn [record_one st_counts]. rewrite qget_qmap3.
    destruct (qget k (c_input_counts c)); [|reflexivity]. rewrite <- app_assoc. reflexivity.
Qed.

Lemma record_rounds_snoc c size l o :
  fold_left (record_one c size) (with_dur c (concat (l ++ [o]))) store_empty =
  fold_left (record_one c size) (with_dur c o) (fold_left (record_one c size) (with_dur c (concat l)) store_empty).
Proof. rewrite concat_app, with_dur_app, fold_left_app. cbn [concat]. rewrite app_nil_r. reflexivity. Qed.

Lemma total_len_app a b : total_len (a ++ b) = total_len a + total_len b.
Proof.
  induction a as [|o a IH]; [reflexivity|].
  change (N.of_nat (length o) + total_len (a ++ b) = N.of_nat (length o) + total_len a + total_len b).
  rewrite IH. apply N.add_assoc.
Qed.

Lemma total_len_one o : total_len [o] = N.of_nat (length o).
Proof. apply N.add_0_r. Qed.

Lemma total_len_concat (l : list round_obs) : total_len l = N.of_nat (length (concat l)).
Proof.
  induction l as [|o l IH]; [reflexivity|]. cbn [concat]. rewrite app_length, Nat2N.inj_add, <- IH. reflexivity.
Qed.

Lemma sum_n_app a b : sum_n (a ++ b) = sum_n a + sum_n b.
Proof.
  induction a as [|x a IH]; [reflexivity|].
  change (x + sum_n (a ++ b) = x + sum_n a + sum_n b). rewrite IH. apply N.add_assoc.
Qed.

Lemma passes_spec c o : passes c o = true <-> 100 < slowest_of c o / c_prec c.
Proof. unfold passes. apply N.ltb_lt. Qed.

Lemma first_pass_lt c l j : first_pass c l = Some j -> (j < length l)%nat.
Proof.
  revert j. induction l as [|o l IH]; intros j H; cbn [first_pass] in H; [discriminate|].
  destruct (passes c o).
  - injection H as <-. apply Nat.lt_0_succ.
  - destruct (first_pass c l) as [j'|]; [|discriminate]. injection H as <-.
    apply -> Nat.succ_lt_mono. exact (IH j' eq_refl).
Qed.

Lemma first_pass_snoc c l o :
  first_pass c (l ++ [o]) =
  match first_pass c l with
  | Some j => Some j
  | None => if passes c o then Some (length l) else None
  end.
Proof.
  induction l as [|x l IH]; cbn [first_pass app length].
  - destruct (passes c o); reflexivity.
  - destruct (passes c x); [reflexivity|]. rewrite IH.
    destruct (first_pass c l); [reflexivity|]. destruct (passes c o); reflexivity.
Qed.

Lemma first_pass_app_some c l m j : first_pass c l = Some j -> first_pass c (l ++ m) = Some j.
Proof.
  revert j. induction l as [|x l IH]; intros j H; cbn [first_pass app] in *; [discriminate|].
  destruct (passes c x); [exact H|].
  destruct (first_pass c l) as [j'|]; [|discriminate]. rewrite (IH j' eq_refl). exact H.
Qed.

Lemma first_pass_firstn c l i :
  first_pass c (firstn i l) =
  match first_pass c l with Some j => if (j <? i)%nat then Some j else None | None => None end.
Proof.
  revert i. induction l as [|o l IH]; intros [|i]; cbn [firstn first_pass]; try reflexivity.
  - destruct (passes c o); [reflexivity|]. destruct (first_pass c l); reflexivity.
  - destruct (passes c o); [reflexivity|]. rewrite IH. destruct (first_pass c l) as [j|]; [|reflexivity].
    change (S j <? S i)%nat with (j <? i)%nat. destruct (j <? i)%nat; reflexivity.
Qed.

Definition mode_of (c : cfg) (pre : list round_obs) : bmode :=
  match c_size c with
  | Some s => MCollect s
  | None => match first_pass c pre with
            | Some j0 => MCollect (pow2 j0)
            | None => MTune (pow2 (length pre))
            end
  end.

Definition rem_of (c : cfg) (pre : list round_obs) : option N :=
  if is_tune (mode_of c pre) then None else Some (sample_count_of c - counted_of c pre).

(** The size with which the kept rounds were recorded. *)
Definition kept_size (c : cfg) (pre : list round_obs) : N :=
  match c_size c with
  | Some s => s
  | None => match first_pass c pre with
            | Some j0 => pow2 j0
            | None => pow2 (length pre - 1)
            end
  end.

Definition store_of (c : cfg) (pre : list round_obs) : store :=
  fold_left (record_one c (kept_size c pre)) (with_dur c (concat (kept_of c pre))) store_empty.

Definition last_size (c : cfg) (pre : list round_obs) : N :=
  match length pre with O => 0 | S k => size_of_round c pre k end.

Definition spec_state (c : cfg) (init : N) (pre : list round_obs) : state :=
  {| s_mode := mode_of c pre;
     s_rem := rem_of c pre;
     s_elapsed := elapsed_of c init pre;
     s_size := last_size c pre;
     s_store := store_of c pre;
     s_sizes := sizes_of c pre (length pre) |}.

Lemma tuned_bench c : c_test c = false ->
  tuned c = match c_size c with None => true | Some _ => false end.
Proof. intros H. unfold tuned. rewrite H. reflexivity. Qed.

Lemma tuned_inv c : tuned c = true -> c_test c = false /\ c_size c = None.
Proof.
  unfold tuned. destruct (c_test c); [discriminate|]. destruct (c_size c); [discriminate|].
  intros _. split; reflexivity.
Qed.

Lemma kept_of_explicit c pre s : c_test c = false -> c_size c = Some s -> kept_of c pre = pre.
Proof. intros Ht Hs. unfold kept_of. rewrite (tuned_bench c Ht), Hs. reflexivity. Qed.

Lemma counted_of_explicit c pre s : c_test c = false -> c_size c = Some s -> counted_of c pre = total_len pre.
Proof. intros Ht Hs. unfold counted_of. rewrite (tuned_bench c Ht), Hs. reflexivity. Qed.

Lemma kept_of_passed c pre j0 : c_test c = false -> c_size c = None -> first_pass c pre = Some j0 ->
  kept_of c pre = skipn j0 pre.
Proof. intros Ht Hs Hf. unfold kept_of. rewrite (tuned_bench c Ht), Hs, Hf. reflexivity. Qed.

Lemma counted_of_passed c pre j0 : c_test c = false -> c_size c = None -> first_pass c pre = Some j0 ->
  counted_of c pre = total_len (skipn j0 pre).
Proof. intros Ht Hs Hf. unfold counted_of. rewrite (tuned_bench c Ht), Hs, Hf. reflexivity. Qed.

Lemma pow2_S n : pow2 (S n) = pow2 n * 2.
Proof. unfold pow2. rewrite Nat2N.inj_succ, N.pow_succ_r'. apply N.mul_comm. Qed.

Lemma pow2_pos n : 0 < pow2 n.
Proof. unfold pow2. apply N.neq_0_lt_0. apply N.pow_nonzero. discriminate. Qed.

(** One more round: what each part of the closed form becomes.  The cases
    are those of the mode after [pre]: collecting (explicit size, or the
    threshold already passed), or tuning with [o] passing the threshold or not. *)

Lemma mode_of_snoc c pre o :
  mode_of c (pre ++ [o]) =
  match mode_of c pre with
  | MTune k => if passes c o then MCollect k else MTune (k * 2)
  | m => m
  end.
Proof.
  unfold mode_of. rewrite first_pass_snoc, last_length, pow2_S.
  destruct (c_size c); [reflexivity|]. destruct (first_pass c pre); [reflexivity|].
  destruct (passes c o); reflexivity.
Qed.

Lemma counted_of_snoc c pre o : c_test c = false ->
  counted_of c (pre ++ [o]) =
  match mode_of c pre with
  | MTune _ => if passes c o then N.of_nat (length o) else 0
  | _ => counted_of c pre + N.of_nat (length o)
  end.
Proof.
  intros Ht. unfold counted_of, mode_of. rewrite (tuned_bench c Ht), first_pass_snoc.
  destruct (c_size c).
  - rewrite total_len_app, total_len_one. reflexivity.
  - destruct (first_pass c pre) as [j0|] eqn:Ef.
    + apply first_pass_lt, Nat.lt_le_incl in Ef. rewrite (skipn_snoc _ _ _ Ef), total_len_app, total_len_one. reflexivity.
    + destruct (passes c o); [|reflexivity]. rewrite skipn_app_exact. apply total_len_one.
Qed.

Lemma rem_of_snoc c pre o : c_test c = false ->
  rem_of c (pre ++ [o]) =
  option_map (fun x => x - N.of_nat (length o))
    (if is_tune (mode_of c pre) && passes c o then Some (sample_count_of c) else rem_of c pre).
Proof.
  intros Ht. unfold rem_of. rewrite (counted_of_snoc c pre o Ht), mode_of_snoc.
  destruct (mode_of c pre); cbn [is_tune andb option_map].
  1, 3: f_equal; apply N.sub_add_distr.
  destruct (passes c o); reflexivity.
Qed.

(** While tuning the collections are cleared before every round, so only the
    new round is kept. *)
Lemma store_of_snoc c pre o : c_test c = false ->
  store_of c (pre ++ [o]) =
  fold_left (record_one c (mode_size (mode_of c pre))) (with_dur c o)
    (if is_tune (mode_of c pre) then store_empty else store_of c pre).
Proof.
  intros Ht. unfold store_of, kept_size, kept_of, mode_of. rewrite (tuned_bench c Ht), first_pass_snoc.
  destruct (c_size c); [apply record_rounds_snoc|].
  destruct (first_pass c pre) as [j0|] eqn:Ef.
  - apply first_pass_lt, Nat.lt_le_incl in Ef. rewrite (skipn_snoc _ _ _ Ef). apply record_rounds_snoc.
  - cbn [is_tune mode_size]. rewrite last_length, Nat.sub_succ, Nat.sub_0_r.
    destruct (passes c o).
    + rewrite skipn_app_exact. apply (record_rounds_snoc c _ [] o).
    + rewrite rev_app_distr. apply (record_rounds_snoc c _ [] o).
Qed.

Lemma size_of_round_app c pre m i : (i <= length pre)%nat ->
  size_of_round c (pre ++ m) i = size_of_round c pre i.
Proof.
  intros H. unfold size_of_round. rewrite firstn_app. apply Nat.sub_0_le in H. rewrite H.
  cbn [firstn]. rewrite app_nil_r. reflexivity.
Qed.

Lemma sizes_of_app c pre m k : (k <= length pre)%nat ->
  sizes_of c (pre ++ m) k = sizes_of c pre k.
Proof.
  intros H. apply map_ext_in. intros i Hi. apply in_seq in Hi.
  apply size_of_round_app, Nat.lt_le_incl, (Nat.lt_le_trans _ _ _ (proj2 Hi) H).
Qed.

Lemma size_of_round_len c pre m : c_test c = false ->
  size_of_round c (pre ++ m) (length pre) = mode_size (mode_of c pre).
Proof.
  intros Ht. rewrite size_of_round_app by reflexivity. unfold size_of_round, mode_of.
  rewrite Ht, firstn_all. destruct (c_size c); [reflexivity|]. destruct (first_pass c pre); reflexivity.
Qed.

Lemma sizes_of_snoc c pre o : c_test c = false ->
  sizes_of c (pre ++ [o]) (length (pre ++ [o])) = sizes_of c pre (length pre) ++ [mode_size (mode_of c pre)].
Proof.
  intros Ht. rewrite last_length. unfold sizes_of at 1. rewrite seq_S, map_app.
  fold (sizes_of c (pre ++ [o]) (length pre)). rewrite sizes_of_app by reflexivity.
  cbn [map Nat.add]. rewrite size_of_round_len by exact Ht. reflexivity.
Qed.

Lemma last_size_snoc c pre o : c_test c = false ->
  last_size c (pre ++ [o]) = mode_size (mode_of c pre).
Proof. intros Ht. unfold last_size. rewrite last_length. apply size_of_round_len. exact Ht. Qed.

Lemma last_size_kept c pre : c_test c = false -> (0 < length pre)%nat -> last_size c pre = kept_size c pre.
Proof.
  intros Ht Hne. induction pre as [|o pre _] using rev_ind; [inversion Hne|].
  rewrite (last_size_snoc c pre o Ht). unfold kept_size, mode_of. rewrite first_pass_snoc, last_length.
  destruct (c_size c); [reflexivity|]. destruct (first_pass c pre); [reflexivity|].
  rewrite Nat.sub_succ, Nat.sub_0_r. destruct (passes c o); reflexivity.
Qed.

Lemma store_of_last_size c pre : c_test c = false ->
  store_of c pre = fold_left (record_one c (last_size c pre)) (with_dur c (concat (kept_of c pre))) store_empty.
Proof.
  intros Ht. unfold store_of. destruct pre as [|o pre]; [unfold kept_of; destruct (tuned c); reflexivity|].
  rewrite (last_size_kept c _ Ht) by apply Nat.lt_0_succ. reflexivity.
Qed.

Lemma store_of_samples c pre :
  st_samples (store_of c pre) =
  map (fun r => sample_duration c (kept_size c pre) r (dur_of c r)) (concat (kept_of c pre)).
Proof. unfold store_of. rewrite record_one_samples. reflexivity. Qed.

Lemma store_of_samples_len c pre :
  length (st_samples (store_of c pre)) = length (concat (kept_of c pre)).
Proof. rewrite store_of_samples. apply map_length. Qed.

(** Saturating accumulation is the capped sum. *)
Lemma min_add_sat a x m : N.min (N.min a m + x) m = N.min (a + x) m.
Proof.
  destruct (N.min_spec a m) as [[_ ->]|[H ->]]; [reflexivity|].
  rewrite (N.min_r (m + x)), (N.min_r (a + x)); [reflexivity|exact (N.le_trans _ _ _ H (N.le_add_r a x))|apply N.le_add_r].
Qed.

Lemma elapsed_of_snoc_skip c init pre o : c_skip c = true ->
  elapsed_of c init (pre ++ [o]) = sat_add 128 (elapsed_of c init pre) (N.max (slowest_of c o) 1000).
Proof.
  intros Hs. unfold elapsed_of. rewrite Hs, map_app, sum_n_app. cbn [map sum_n fold_right].
  rewrite N.add_0_r. symmetry. apply min_add_sat.
Qed.

Lemma elapsed_of_snoc_noskip c init pre o : c_skip c = false ->
  elapsed_of c init (pre ++ [o]) = dur_ps (c_freq c) (latest_end o) init.
Proof. intros Hs. unfold elapsed_of. rewrite Hs, rev_app_distr. reflexivity. Qed.

Lemma sub_pos_ltb n m : (0 <? n - m) = (m <? n).
Proof.
  destruct (N.ltb_spec m n) as [H|H].
  - apply N.ltb_lt, N.lt_add_lt_sub_r. exact H.
  - apply N.sub_0_le in H. rewrite H. reflexivity.
Qed.

Lemma loop_cond_spec c init pre :
  c_test c = false -> sample_count_of c <> 0 ->
  loop_cond c (spec_state c init pre) = continue_of c init pre.
Proof.
  intros Ht Hn. unfold loop_cond, continue_of, spec_state; cbn [s_elapsed s_rem].
  unfold max_reached, below_min, max_time_cmp_is_ge, min_time_cmp_is_lt.
  rewrite (N.ltb_antisym (c_max c)).
  destruct (c_max c <=? elapsed_of c init pre); [reflexivity|]. cbn [negb andb].
  replace (0 <? match rem_of c pre with Some r => r | None => 1 end)
    with (counted_of c pre <? sample_count_of c); [destruct (_ <? sample_count_of c); reflexivity|].
  unfold rem_of, counted_of, mode_of. rewrite (tuned_bench c Ht).
  destruct (c_size c); [|destruct (first_pass c pre)]; cbn [is_tune]; try apply eq_sym, sub_pos_ltb.
  (* still tuning: nothing counts yet, and some sample is wanted *)
  apply N.ltb_lt, N.neq_0_lt_0, Hn.
Qed.

Lemma prec_used_tuned c : c_test c = false -> c_size c = None -> prec_used c = c_prec c.
Proof. intros Ht Hs. unfold prec_used, initial_mode. rewrite Ht, Hs. reflexivity. Qed.

Lemma count_default c : count_or_default c = sample_count_of c.
Proof. reflexivity. Qed.

Lemma tune_branch_not_tune c st slow : is_tune (s_mode st) = false -> tune_branch c st slow = Ok st.
Proof. unfold tune_branch. destruct (s_mode st); [reflexivity|discriminate|reflexivity]. Qed.

Lemma tune_branch_tune c st slow k : s_mode st = MTune k ->
  tune_branch c st slow =
  if prec_used c =? 0 then Panic DivByZero
  else if slow / prec_used c <=? 100 then
    if k * 2 <? 2 ^ 32 then
      Ok {| s_mode := MTune (k * 2); s_rem := s_rem st; s_elapsed := s_elapsed st;
            s_size := s_size st; s_store := store_empty; s_sizes := s_sizes st |}
    else Panic Overflow
  else Ok {| s_mode := MCollect k; s_rem := Some (sample_count_of c); s_elapsed := s_elapsed st;
             s_size := s_size st; s_store := store_empty; s_sizes := s_sizes st |}.
Proof.
  intros Hm. unfold tune_branch, checked_div, checked_mul. rewrite Hm, count_default.
  destruct (prec_used c =? 0); [reflexivity|]. cbn [bind].
  change tune_threshold with 100. change tune_factor with 2.
  destruct (_ <=? 100); [|reflexivity]. destruct (_ <? 2 ^ 32); reflexivity.
Qed.

Lemma tune_branch_spec c pre o st st1 :
  c_test c = false -> s_mode st = mode_of c pre ->
  tune_branch c st (slowest_of c o) = Ok st1 ->
  st1 = {| s_mode := mode_of c (pre ++ [o]);
           s_rem := if is_tune (mode_of c pre) && passes c o then Some (sample_count_of c) else s_rem st;
           s_elapsed := s_elapsed st; s_size := s_size st;
           s_store := if is_tune (mode_of c pre) then store_empty else s_store st;
           s_sizes := s_sizes st |}.
Proof.
  intros Ht Hm. rewrite mode_of_snoc.
  destruct (mode_of c pre) as [|k|k] eqn:E; cbn [is_tune andb].
  1, 3: rewrite tune_branch_not_tune by (rewrite Hm; reflexivity); intros [= <-];
    destruct st; cbn in Hm; rewrite Hm; reflexivity.
  assert (Hs : c_size c = None) by (unfold mode_of in E; destruct (c_size c); [discriminate|reflexivity]).
  rewrite (tune_branch_tune c st _ k Hm), (prec_used_tuned c Ht Hs). unfold passes. rewrite (N.ltb_antisym _ 100).
  destruct (c_prec c =? 0); [discriminate|].
  destruct (_ <=? 100); cbn [negb]; [destruct (_ <? 2 ^ 32); [|discriminate]|]; intros [= <-]; reflexivity.
Qed.

Lemma round_body_eq c init st size obs :
  round_body c init st size obs =
  do _ <- map_res (raw_duration c) obs;
  do st1 <- tune_branch c st (slowest_of c obs);
  if qany (c_input_counts c) && (size =? 0) then Panic DivByZero
  else
    do el <- (if c_skip c then Ok (sat_add 128 (s_elapsed st1) (N.max (slowest_of c obs) min_progress_picos))
              else tsc_duration (latest_end obs) init (c_freq c));
    Ok {| s_mode := s_mode st1; s_rem := option_map (fun x => x - N.of_nat (length obs)) (s_rem st1);
          s_elapsed := el; s_size := s_size st1;
          s_store := fold_left (record_one c size) (with_dur c obs) (s_store st1);
          s_sizes := s_sizes st1 |}.
Proof.
  unfold round_body. destruct (map_res (raw_duration c) obs) as [durs|p] eqn:Ed; cbn [bind]; [|reflexivity].
  apply map_res_raw in Ed. subst durs. rewrite combine_with_dur.
  change (nmax_list (map (dur_of c) obs)) with (slowest_of c obs).
  destruct (tune_branch c st (slowest_of c obs)) as [st1|p]; cbn [bind]; [|reflexivity].
  rewrite record_fold, length_with_dur. reflexivity.
Qed.

Lemma round_step_spec c init pre obs st' :
  c_test c = false ->
  round_step c init (spec_state c init pre) obs = Ok st' ->
  st' = spec_state c init (pre ++ [obs]).
Proof.
  intros Ht H. unfold round_step in H.
  destruct obs as [|r0 obs0] eqn:Eo; [discriminate|]. rewrite <- Eo in *. clear Eo r0 obs0.
  rewrite round_body_eq in H.
  destruct (map_res (raw_duration c) obs); cbn [bind] in H; [|discriminate].
  destruct (tune_branch c _ (slowest_of c obs)) as [st1|p] eqn:Htb; cbn [bind] in H; [|discriminate].
  destruct (qany (c_input_counts c) && _); [discriminate|].
  match type of H with (do el <- ?X; _) = _ => destruct X as [el|p] eqn:Hel end; cbn [bind] in H; [|discriminate].
  injection H as <-.
  apply (tune_branch_spec c pre obs (with_round (spec_state c init pre) _) _ Ht eq_refl) in Htb. subst st1.
  cbn [with_round spec_state s_store s_rem s_mode s_elapsed s_size s_sizes] in *.
  unfold spec_state. f_equal; symmetry.
  - apply rem_of_snoc. exact Ht.
  - destruct (c_skip c) eqn:Es.
    + injection Hel as <-. apply elapsed_of_snoc_skip. exact Es.
    + apply tsc_duration_ok in Hel. subst el. apply elapsed_of_snoc_noskip. exact Es.
  - apply last_size_snoc. exact Ht.
  - apply store_of_snoc. exact Ht.
  - apply sizes_of_snoc. exact Ht.
Qed.

Lemma run_spec c init : c_test c = false -> sample_count_of c <> 0 -> forall rest pre out,
  run c init (spec_state c init pre) rest = Ok out ->
  exists k, (k <= length rest)%nat /\
    out_state out = spec_state c init (pre ++ firstn k rest) /\
    (forall j, (j < k)%nat -> continue_of c init (pre ++ firstn j rest) = true) /\
    (if out_done out then continue_of c init (pre ++ firstn k rest) = false
     else k = length rest /\ continue_of c init (pre ++ firstn k rest) = true).
Proof.
  intros Ht Hn. induction rest as [|obs rest IH]; intros pre out H; cbn [run] in H;
    rewrite (loop_cond_spec c init pre Ht Hn) in H;
    destruct (continue_of c init pre) eqn:Ec.
  (* the rule says stop, or the history is used up: no further round *)
  1, 2, 4: injection H as <-; exists O; cbn [firstn out_state out_done length]; rewrite app_nil_r;
    repeat split; [apply Nat.le_0_l|intros j Hj; inversion Hj|exact Ec].
  rewrite Ht in H.
  destruct (round_step c init (spec_state c init pre) obs) as [st'|p] eqn:Er; cbn [bind] in H; [|discriminate].
  apply (round_step_spec c init pre obs st' Ht) in Er. subst st'.
  destruct (IH (pre ++ [obs]) out H) as [k [Hk [Hst [Hlt Hend]]]].
  assert (Happ : forall m, (pre ++ [obs]) ++ m = pre ++ obs :: m) by (intros m; rewrite <- app_assoc; reflexivity).
  rewrite Happ in Hst, Hend.
  exists (S k). cbn [firstn length]. split; [apply le_n_S, Hk|]. split; [exact Hst|]. split.
  - intros [|j] Hj; cbn [firstn].
    + rewrite app_nil_r. exact Ec.
    + rewrite <- Happ. apply Hlt, Nat.succ_lt_mono, Hj.
  - destruct (out_done out); [exact Hend|]. split; [f_equal|]; apply Hend.
Qed.

Lemma spec_state_nil c init : c_test c = false -> init_state c = spec_state c init [].
Proof.
  intros Ht. unfold init_state, spec_state, initial_mode, rem_of, mode_of, last_size, store_of, elapsed_of, counted_of, kept_of.
  rewrite Ht, (tuned_bench c Ht).
  destruct (c_size c); destruct (c_skip c); cbn [is_tune first_pass total_len fold_right]; rewrite ?N.sub_0_r; reflexivity.
Qed.

Lemma rounds_spec_state c init pre : rounds_of (spec_state c init pre) = length pre.
Proof. unfold rounds_of, spec_state, sizes_of; cbn [s_sizes]. rewrite map_length. apply seq_length. Qed.

Theorem bench_loop_spec c init hist out :
  c_test c = false -> zero_case c = false ->
  bench_loop c init hist = Ok out ->
  let k := rounds_of (out_state out) in
  (k <= length hist)%nat /\
  out_state out = spec_state c init (firstn k hist) /\
  (forall j, (j < k)%nat -> continue_after c init hist j = true) /\
  (if out_done out then continue_after c init hist k = false
   else k = length hist /\ continue_after c init hist k = true).
Proof.
  intros Ht Hz H. rewrite (bench_loop_run c init hist Hz), (spec_state_nil c init Ht) in H.
  assert (Hn : sample_count_of c <> 0) by (apply has_samples_count, zero_case_false, Hz).
  destruct (run_spec c init Ht Hn hist [] out H) as [k [Hk [Hst [Hlt Hend]]]]. cbn [app] in *.
  assert (E : rounds_of (out_state out) = k) by (rewrite Hst, rounds_spec_state; apply firstn_length_le, Hk).
  cbn zeta. rewrite E. repeat split; assumption.
Qed.

(** The early return leaves the state after no round, so the closed form
    holds in the zero case too. *)
Lemma bench_loop_state c init hist out :
  c_test c = false -> bench_loop c init hist = Ok out ->
  let k := rounds_of (out_state out) in
  (k <= length hist)%nat /\ out_state out = spec_state c init (firstn k hist).
Proof.
  intros Ht H. destruct (zero_case c) eqn:Hz.
  - rewrite (bench_loop_zero c init hist Hz) in H. injection H as <-.
    split; [apply Nat.le_0_l|apply (spec_state_nil c init Ht)].
  - destruct (bench_loop_spec c init hist out Ht Hz H) as [Hk [Hst _]]. exact (conj Hk Hst).
Qed.
