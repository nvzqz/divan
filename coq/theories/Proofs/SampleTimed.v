(** C02: the timed section of a sample contains only the calls; the tally
    snapshot is exactly the tally of the calls' allocator operations.  Also what
    the boolean form [sb_timed], evaluated on implementation logs, means for any
    event list. *)

From DivanV Require Import Base.Res Model.Sample Proofs.Sample Proofs.ListFacts.
Local Open Scope nat_scope.

Lemma split_at_some {A} (p : A -> bool) : forall l a y b,
  split_at p l = (a, Some (y, b)) ->
  l = a ++ y :: b /\ Forall (fun x => p x = false) a /\ p y = true.
Proof.
  induction l as [|x l IH]; intros a y b H; cbn in H; [discriminate|].
  destruct (p x) eqn:Hx.
  - inversion H; subst. repeat split; [constructor|exact Hx].
  - destruct (split_at p l) as [a' o] eqn:E. inversion H; subst.
    destruct (IH a' y b eq_refl) as (-> & Ha & Hy).
    repeat split; [constructor; assumption|exact Hy].
Qed.

Lemma split_at_spec {A} (p : A -> bool) (a : list A) (y : A) (b : list A) :
  Forall (fun x => p x = false) a -> p y = true ->
  split_at p (a ++ y :: b) = (a, Some (y, b)).
Proof.
  induction 1 as [|x a Hx Ha IH]; intros Hy; cbn.
  - rewrite Hy. reflexivity.
  - rewrite Hx, (IH Hy). reflexivity.
Qed.

Theorem sb_timed_meaning {A} (l : list (oev A)) :
  sb_timed l = true ->
  exists pre timed sync post,
    l = pre ++ OTsStart :: timed ++ OTsEnd :: sync ++ OSnapshot :: post
    /\ Forall (fun e => is_pre_ev e = true) pre
    /\ length (filter is_clear pre) = 1
    /\ Forall (fun e => is_timed_ev e = true) timed
    /\ Forall (fun e => is_end_sync_ev e = true) sync
    /\ Forall (fun e => is_post_ev e = true) post.
Proof.
  unfold sb_timed. intros H.
  destruct (split_at is_ts_start l) as [pre [[y1 r1]|]] eqn:E1; [|discriminate H].
  destruct (split_at is_ts_end r1) as [timed [[y2 r2]|]] eqn:E2; [|discriminate H].
  destruct (split_at is_snapshot r2) as [sync [[y3 post]|]] eqn:E3; [|discriminate H].
  apply split_at_some in E1. destruct E1 as (-> & _ & Hy1).
  apply split_at_some in E2. destruct E2 as (-> & _ & Hy2).
  apply split_at_some in E3. destruct E3 as (-> & _ & Hy3).
  destruct y1; try discriminate Hy1. destruct y2; try discriminate Hy2. destruct y3; try discriminate Hy3.
  repeat rewrite Bool.andb_true_iff in H. destruct H as ((((Hp & Hc) & Ht) & Hs) & Hq).
  exists pre, timed, sync, post. split; [reflexivity|].
  repeat split; try (apply forallb_Forall; assumption).
  apply Nat.eqb_eq. exact Hc.
Qed.

Lemma sb_timed_intro {A} (pre timed sync post : list (oev A)) :
  Forall (fun e => is_pre_ev e = true) pre ->
  length (filter is_clear pre) = 1 ->
  Forall (fun e => is_timed_ev e = true) timed ->
  Forall (fun e => is_end_sync_ev e = true) sync ->
  Forall (fun e => is_post_ev e = true) post ->
  sb_timed (pre ++ OTsStart :: timed ++ OTsEnd :: sync ++ OSnapshot :: post) = true.
Proof.
  intros Hp Hc Ht Hs Hq. unfold sb_timed.
  rewrite (split_at_spec is_ts_start pre); [|revert Hp; apply Forall_impl; intros []; easy|reflexivity].
  rewrite (split_at_spec is_ts_end timed); [|revert Ht; apply Forall_impl; intros []; easy|reflexivity].
  rewrite (split_at_spec is_snapshot sync); [|revert Hs; apply Forall_impl; intros []; easy|reflexivity].
  apply forallb_Forall in Hp, Ht, Hs, Hq. rewrite Hp, Hc, Ht, Hs, Hq. reflexivity.
Qed.

Definition start_sync (multi : bool) : list (oev nat) :=
  if multi then [OBarArrive 1; OBarLeave 1; OClear; OBarArrive 2; OBarLeave 2] else [OClear].

Definition end_sync (multi : bool) : list (oev nat) :=
  if multi then [OBarArrive 0; OBarLeave 0] else [].

(** What a call shows: the call, and the drop the called function itself makes
    of an input it owns (when it has a destructor). *)
Definition call_events (v : vis) (r u : bool) (i : nat) : list (oev nat) :=
  OCall i i :: (if negb r && u && v_idrop v then [OUDropIn i] else []).

Lemma obs_gen_phase v p cs n :
  Forall (fun ev => match ev with OGen _ | OCount _ _ => True | _ => False end) (obs v (gen_phase p cs n)).
Proof.
  eapply obs_Forall; [|apply gen_phase_acts].
  intros [] [[= ] _]%in_loop_inv; cbn; [destruct (v_gen v)|..]; repeat constructor.
Qed.

Lemma obs_drop_phase v p sh r n :
  Forall (fun ev => match ev with ODropOut _ | ODropIn _ => True | _ => False end) (obs v (drop_phase p sh r n)).
Proof.
  eapply obs_Forall; [|apply drop_phase_acts].
  intros [] [[= ] _]%in_loop_inv; cbn; [destruct (v_odrop v)|destruct (v_idrop v)]; repeat constructor.
Qed.

Theorem timed_decomposition e sh n cs u multi :
  let v := vis_of e sh multi in
  exists pre post,
    obs v (sample_prog e sh n cs u) =
      (pre ++ start_sync multi) ++ OTsStart ::
      flat_map (call_events v (by_ref e) u) (seq 0 n) ++ OTsEnd ::
      end_sync multi ++ OSnapshot :: post
    /\ Forall (fun ev => match ev with OGen _ | OCount _ _ => True | _ => False end) pre
    /\ Forall (fun ev => match ev with ODropOut _ | ODropIn _ => True | _ => False end) post.
Proof.
  intros v. unfold sample_prog, sample_core. set (s := eff_shape e sh). set (p := path_of s).
  exists (obs v (gen_phase p (eff_counters e cs) n)), (obs v (drop_phase p s (by_ref e) n)).
  split; [|split; [apply obs_gen_phase|apply obs_drop_phase]].
  rewrite !obs_app. unfold call_phase. rewrite (obs_flat_map v (call_block p (by_ref e) u)).
  rewrite (flat_map_ext _ _ (obs_call_block v p (by_ref e) u)).
  unfold start_sync, end_sync.
  destruct multi; cbn [obs flat_map obs1 v vis_of v_multi app]; rewrite <- ?app_assoc; reflexivity.
Qed.

Lemma calls_in_order v r u n :
  filter (fun e => match e with OCall _ _ => true | _ => false end)
         (flat_map (call_events v r u) (seq 0 n))
  = map (fun i => OCall i i) (seq 0 n).
Proof.
  generalize 0. induction n as [|n IH]; intros a; cbn; [reflexivity|].
  rewrite filter_app, IH. unfold call_events.
  destruct (negb r && u && v_idrop v); reflexivity.
Qed.

Lemma call_events_timed v r u i : Forall (fun e => is_timed_ev e = true) (call_events v r u i).
Proof. unfold call_events. destruct (negb r && u && v_idrop v); repeat constructor. Qed.

(** The boolean form used on implementation logs holds of the model: the
    decomposition above is of the shape [sb_timed] asks for. *)
Theorem sb_timed_model e sh n cs u multi :
  sb_timed (obs (vis_of e sh multi) (sample_prog e sh n cs u)) = true.
Proof.
  destruct (timed_decomposition e sh n cs u multi) as (pre & post & -> & Hpre & Hpost).
  assert (Hnc : filter is_clear pre = []).
  { induction Hpre as [|[] l H _ IH]; try contradiction H; exact IH || reflexivity. }
  apply sb_timed_intro.
  - apply Forall_app. split.
    + revert Hpre. apply Forall_impl. intros []; easy.
    + unfold start_sync. destruct multi; repeat constructor.
  - rewrite filter_app, Hnc. unfold start_sync. destruct multi; reflexivity.
  - apply Forall_flat_map, Forall_forall. intros i _. apply call_events_timed.
  - unfold end_sync. destruct multi; repeat constructor.
  - revert Hpost. apply Forall_impl. intros []; easy.
Qed.

(** On the internal actions: between the timestamps there is, per index in
    order, the call, possibly the called function's own drop of its argument,
    and the loop's disposal of the output — nothing else. *)
Theorem timed_actions e sh n cs u :
  let s := eff_shape e sh in
  let p := path_of s in
  sample_prog e sh n cs u =
    gen_phase p (eff_counters e cs) n ++ [SyncStart; TsStart] ++
    flat_map (fun i => [Call i (by_ref e) (in_cell p)]
                       ++ (if negb (by_ref e) && u then [UserDropIn i] else [])
                       ++ [out_action p i]) (seq 0 n) ++
    [TsEnd; SyncEnd; Snapshot] ++ drop_phase p s (by_ref e) n
  /\ Forall (fun a => match a with Gen _ | Count _ _ | ForgetIn _ => True | _ => False end)
            (gen_phase p (eff_counters e cs) n)
  /\ Forall (fun a => match a with DropOut _ _ | DropIn _ _ => True | _ => False end)
            (drop_phase p s (by_ref e) n).
Proof.
  intros s p. split; [reflexivity|]. split.
  - eapply Forall_impl; [|apply gen_phase_acts]. intros [] [[= ] _]%in_loop_inv; exact I.
  - eapply Forall_impl; [|apply drop_phase_acts]. intros [] [[= ] _]%in_loop_inv; exact I.
Qed.

Definition is_ctl (a : action) : bool :=
  match a with SyncStart | Snapshot => true | _ => false end.

Lemma run_tally_app script l1 l2 t :
  run_tally script (l1 ++ l2) t = run_tally script l2 (run_tally script l1 t).
Proof. apply fold_left_app. Qed.

Lemma run_tally_noctl script l :
  Forall (fun a => is_ctl a = false) l ->
  forall t, run_tally script l t = mkT (t_cur t ++ flat_map (ops_of script) l) (t_snap t).
Proof.
  induction 1 as [|a l Ha Hl IH]; intros t; cbn.
  - rewrite app_nil_r. destruct t; reflexivity.
  - unfold run_tally in IH. rewrite IH.
    destruct a; try discriminate; cbn; rewrite <- ?app_assoc; reflexivity.
Qed.

Lemma loop_noctl k n l : Forall (in_loop k n) l -> Forall (fun a => is_ctl a = false) l.
Proof. apply Forall_impl. intros [] [[= ] _]%in_loop_inv; reflexivity. Qed.

Lemma run_tally_start script l t :
  run_tally script ([SyncStart; TsStart] ++ l) t = run_tally script l (mkT [] (t_snap t)).
Proof. reflexivity. Qed.

Lemma run_tally_end script l t :
  run_tally script ([TsEnd; SyncEnd; Snapshot] ++ l) t = run_tally script l (mkT (t_cur t) (Some (t_cur t))).
Proof. cbn. rewrite !app_nil_r. reflexivity. Qed.

(** For every allocation script of generator / counters / benchmarked function
    / destructors, whatever was tallied before the sample: the copy taken by
    [save_alloc_info] holds exactly the operations of the calls, in order. *)
Theorem alloc_attribution_core p sh cs r u n script before :
  t_snap (run_tally script (sample_core p sh cs r u n) (tstate0 before))
  = Some (timed_ops script p r u n).
Proof.
  unfold sample_core.
  rewrite run_tally_app, (run_tally_noctl script _ (loop_noctl _ _ _ (gen_phase_acts p cs n))).
  rewrite run_tally_start.
  rewrite run_tally_app, (run_tally_noctl script _ (loop_noctl _ _ _ (call_phase_acts p r u n))).
  rewrite run_tally_end.
  rewrite (run_tally_noctl script _ (loop_noctl _ _ _ (drop_phase_acts p sh r n))).
  reflexivity.
Qed.

Theorem alloc_attribution e sh n cs u script before :
  snapshot_figures (run_tally script (sample_prog e sh n cs u) (tstate0 before))
  = Some (tally_of (timed_ops script (path_of (eff_shape e sh)) (by_ref e) u n)).
Proof.
  unfold snapshot_figures, sample_prog. rewrite alloc_attribution_core. reflexivity.
Qed.

(** The operations of the calls are those of the user code run inside them:
    the benchmarked function and its own drop of an owned argument. *)
Lemma timed_ops_calls script p r u n :
  timed_ops script p r u n =
  flat_map (fun i => script (Call i r (in_cell p))
                     ++ (if negb r && u then script (UserDropIn i) else [])) (seq 0 n).
Proof.
  unfold timed_ops, call_phase. rewrite flat_map_flat_map. apply flat_map_ext. intros i.
  destruct p, r, u; cbn; rewrite ?app_nil_r; reflexivity.
Qed.

Theorem sample_figures_spec c s before :
  sample_figures c s before = Some (spec_figures c s).
Proof. unfold sample_figures, spec_figures. apply alloc_attribution. Qed.

(** No user allocation inside the calls: all-zero figures, whatever the
    generator, the counters and the destructors allocate. *)
Theorem no_call_ops_zero e sh n cs u script before :
  (forall i r c, script (Call i r c) = []) -> (forall i, script (UserDropIn i) = []) ->
  snapshot_figures (run_tally script (sample_prog e sh n cs u) (tstate0 before)) = Some figures0.
Proof.
  intros Hc Hu. rewrite alloc_attribution, timed_ops_calls.
  assert (H : forall a, flat_map (fun i => script (Call i (by_ref e) (in_cell (path_of (eff_shape e sh))))
                                       ++ (if negb (by_ref e) && u then script (UserDropIn i) else []))
                                 (seq a n) = []).
  { induction n as [|n IH]; intros a; cbn; [reflexivity|].
    rewrite Hc, IH. destruct (negb (by_ref e) && u); rewrite ?Hu; reflexivity. }
  rewrite H. reflexivity.
Qed.

(** The hypotheses of [no_call_ops_zero] are satisfiable by a script that does allocate. *)
Example outside_script_example :
  let script := fun a => match a with
                         | Gen _ => [Alloc 16; Dealloc 16]
                         | DropOut _ _ => [Alloc 8]
                         | DropIn _ _ => [Alloc 3; Dealloc 3]
                         | _ => []
                         end in
  (forall i r c, script (Call i r c) = []) /\ (forall i, script (UserDropIn i) = []) /\
  script (Gen 0) <> [] /\
  snapshot_figures (run_tally script (sample_prog ERefs (mkShape false true false true) 3 no_counters true)
                              (tstate0 [Alloc 5])) = Some figures0.
Proof. cbn. repeat split; discriminate. Qed.
