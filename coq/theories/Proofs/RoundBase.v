(** C08, common ground of the Round*.v files: lemmas on [upd],
    [countb] and [find_idx], the action at every position of [prog] ([at_pos]),
    and the steps of a thread and of the system as inductive case lists ([tcase],
    [scase]) for configurations in which every thread has its allocation info;
    executions, and induction over the reachable states ([reachable_inv]). *)
From Coq Require Import List Arith Bool Lia.
From DivanV Require Import Model.Round Proofs.ListFacts.
Import ListNotations.

Lemma upd_length : forall A i (x : A) l, length (upd i x l) = length l.
Proof. intros A i x l. revert i. induction l as [|h t IH]; intros [|i]; cbn; auto. Qed.

Lemma nth_error_upd_eq : forall A i (x o : A) l,
  nth_error l i = Some o -> nth_error (upd i x l) i = Some x.
Proof. intros A i x o l. revert i. induction l as [|h t IH]; intros [|i] H; cbn in *; try discriminate; auto. Qed.

Lemma nth_error_upd_neq : forall A i j (x : A) l,
  j <> i -> nth_error (upd i x l) j = nth_error l j.
Proof.
  intros A i j x l. revert i j. induction l as [|h t IH]; intros [|i] [|j] H; cbn; auto.
  - contradiction.
Qed.

Lemma nth_error_upd_inv : forall A i j (x y : A) l,
  nth_error (upd i x l) j = Some y -> (j = i /\ y = x) \/ (j <> i /\ nth_error l j = Some y).
Proof.
  intros A i j x y l H. destruct (Nat.eq_dec j i) as [E|E].
  - subst. left. split; auto.
    destruct (nth_error l i) eqn:N.
    + rewrite (nth_error_upd_eq _ _ _ _ _ N) in H. congruence.
    + apply nth_error_None in N. rewrite <- (upd_length _ i x) in N.
      apply nth_error_None in N. congruence.
  - right. split; auto. rewrite nth_error_upd_neq in H; auto.
Qed.

Lemma map_upd : forall A B (f : A -> B) i x l, map f (upd i x l) = upd i (f x) (map f l).
Proof. intros A B f i x l. revert i. induction l as [|h t IH]; intros [|i]; cbn; auto. f_equal. apply IH. Qed.

Lemma upd_nth_same : forall A i (x : A) l, nth_error l i = Some x -> upd i x l = l.
Proof.
  intros A i x l. revert i. induction l as [|h t IH]; intros [|i] H; cbn in *; try discriminate.
  - congruence.
  - f_equal. auto.
Qed.

Lemma countb_le : forall A (p : A -> bool) l, countb p l <= length l.
Proof.
  intros A p l. unfold countb. induction l as [|h t IH]; cbn; [lia|].
  destruct (p h); cbn; lia.
Qed.

Lemma countb_cons : forall A (p : A -> bool) h t, countb p (h :: t) = b2n (p h) + countb p t.
Proof. intros. unfold countb. cbn. destruct (p h); reflexivity. Qed.

Lemma countb_upd : forall A (p : A -> bool) i x o l,
  nth_error l i = Some o -> countb p (upd i x l) + b2n (p o) = countb p l + b2n (p x).
Proof.
  intros A p i x o l. revert i. induction l as [|h t IH]; intros [|i] H; cbn in H; try discriminate.
  - inversion H; subst. cbn [upd]. rewrite !countb_cons. lia.
  - cbn [upd]. rewrite !countb_cons. specialize (IH i H). lia.
Qed.

Lemma countb_full : forall A (p : A -> bool) l,
  countb p l = length l -> forall x, In x l -> p x = true.
Proof.
  intros A p l. induction l as [|h t IH]; intros H x HI; [contradiction|].
  rewrite countb_cons in H. cbn [length] in H. pose proof (countb_le _ p t) as L.
  destruct (p h) eqn:E; cbn in H; [|lia].
  destruct HI as [->|HI]; [auto|apply IH; auto; lia].
Qed.

Lemma countb_lt : forall A (p : A -> bool) l x, In x l -> p x = false -> countb p l < length l.
Proof.
  intros A p l x HI PX. pose proof (countb_le _ p l) as L.
  destruct (Nat.eq_dec (countb p l) (length l)) as [E|]; [|lia].
  rewrite (countb_full _ p l E x HI) in PX. discriminate.
Qed.

Lemma countb_others : forall A (p : A -> bool) l i o,
  nth_error l i = Some o -> p o = false -> S (countb p l) = length l ->
  forall j y, j <> i -> nth_error l j = Some y -> p y = true.
Proof.
  intros A p l. induction l as [|h t IH]; intros [|i] o N PO C [|j] y NE NJ;
    cbn in N, NJ; try discriminate; try contradiction;
    rewrite countb_cons in C; cbn [length] in C.
  - injection N as ->. rewrite PO in C. apply (countb_full _ p t); [cbn in C; lia|eapply nth_error_In; eauto].
  - injection NJ as ->. pose proof (countb_lt _ p t o (nth_error_In _ _ N) PO).
    destruct (p y); [reflexivity|cbn in C; lia].
  - pose proof (countb_lt _ p t o (nth_error_In _ _ N) PO).
    destruct (p h); cbn in C; [|lia]. apply (IH i o N PO ltac:(lia) j); auto.
Qed.

Lemma countb_zero : forall A (p : A -> bool) l,
  (forall x, In x l -> p x = false) -> countb p l = 0.
Proof. intros A p l H. unfold countb. rewrite (filter_none p l H). reflexivity. Qed.

Lemma countb_all : forall A (p : A -> bool) l,
  (forall x, In x l -> p x = true) -> countb p l = length l.
Proof. intros A p l H. unfold countb. rewrite (filter_all p l H). reflexivity. Qed.

Lemma countb_ext : forall A (p q : A -> bool) l,
  (forall x, In x l -> p x = q x) -> countb p l = countb q l.
Proof. intros A p q l H. unfold countb. rewrite (filter_ext_in p q l H). reflexivity. Qed.

Lemma sum_upd : forall A (f : A -> nat) i x o l,
  nth_error l i = Some o -> sum (map f (upd i x l)) + f o = sum (map f l) + f x.
Proof.
  intros A f i x o l. revert i. induction l as [|h t IH]; intros [|i] H; cbn in H; try discriminate.
  - inversion H; subst. cbn. lia.
  - cbn. specialize (IH i H). unfold sum in IH. lia.
Qed.

Lemma sum_map_const : forall A (f : A -> nat) k l, (forall x, In x l -> f x = k) -> sum (map f l) = length l * k.
Proof.
  intros A f k l. induction l as [|h t IH]; intros H; [reflexivity|].
  cbn. rewrite (H h (or_introl eq_refl)). unfold sum in IH. rewrite IH; [lia|]. intros. apply H. right; auto.
Qed.

Lemma find_idx_some : forall A (p : A -> bool) l k,
  find_idx p l = Some k ->
  exists x, nth_error l k = Some x /\ p x = true /\ forall j y, j < k -> nth_error l j = Some y -> p y = false.
Proof.
  intros A p l. induction l as [|h t IH]; intros k H; cbn in H; [discriminate|].
  destruct (p h) eqn:E.
  - inversion H; subst. exists h. repeat split; auto. intros; lia.
  - destruct (find_idx p t) as [k'|] eqn:F; cbn in H; [|discriminate]. inversion H; subst.
    destruct (IH k' eq_refl) as (x & N & P & L). exists x. repeat split; auto.
    intros [|j] y Hj Ny; cbn in Ny.
    + inversion Ny; subst; auto.
    + eapply L; eauto. lia.
Qed.

Lemma find_idx_none : forall A (p : A -> bool) l,
  find_idx p l = None -> forall x, In x l -> p x = false.
Proof.
  intros A p l. induction l as [|h t IH]; intros H x HI; [contradiction|]. cbn in H.
  destruct (p h) eqn:E; [discriminate|].
  destruct (find_idx p t) eqn:F; [discriminate|].
  destruct HI as [->|HI]; auto.
Qed.

Lemma find_idx_all_false : forall A (p : A -> bool) l,
  (forall x, In x l -> p x = false) -> find_idx p l = None.
Proof.
  intros A p l. induction l as [|h t IH]; intros H; [reflexivity|]. cbn.
  rewrite (H h (or_introl eq_refl)), IH; [reflexivity|]. intros. apply H. right; auto.
Qed.

Lemma drops_length : forall n sh, length (drops n sh) = ndrops n sh.
Proof.
  intros n sh. unfold drops, ndrops.
  assert (forall l, length (flat_map (drops_of sh) l) = length l * (b2n (drop_out sh) + b2n (drop_in sh))) as G.
  { induction l as [|h t IH]; [reflexivity|]. cbn [flat_map]. rewrite app_length, IH.
    unfold drops_of. rewrite app_length. destruct (drop_out sh), (drop_in sh); cbn; lia. }
  rewrite G, seq_length. reflexivity.
Qed.

Lemma drops_are_drops : forall n sh a, In a (drops n sh) -> exists k o, a = ADrop k o.
Proof.
  intros n sh a H. unfold drops in H. apply in_flat_map in H. destruct H as (k & _ & H).
  unfold drops_of in H. apply in_app_or in H.
  destruct H as [H|H]; [destruct (drop_out sh)|destruct (drop_in sh)]; cbn in H; try contradiction;
    destruct H as [<-|[]]; eauto.
Qed.

Lemma prog_length : forall n sh, length (prog n sh) = plen n sh.
Proof.
  intros. unfold prog, plen. rewrite !app_length, !map_length, !seq_length, drops_length. cbn. lia.
Qed.

Lemma prog_nth : forall n sh p,
  nth_error (prog n sh) p =
  if p <? n then Some (AGen p) else
  if p <? n + 4 then nth_error [AWait 1; AClear; AWait 2; ATsStart] (p - n) else
  if p <? 2 * n + 4 then Some (ACall (p - (n + 4))) else
  if p <? 2 * n + 7 then nth_error [ATsEnd; AWait 3; ASnapshot] (p - (2 * n + 4)) else
  nth_error (drops n sh) (p - (2 * n + 7)).
Proof.
  intros n sh p. unfold prog.
  destruct (Nat.ltb_spec p n) as [H1|H1].
  { rewrite nth_error_app1 by (rewrite map_length, seq_length; lia).
    erewrite map_nth_error; [reflexivity|]. rewrite nth_error_seq by lia. reflexivity. }
  rewrite nth_error_app2 by (rewrite map_length, seq_length; lia).
  rewrite map_length, seq_length.
  destruct (Nat.ltb_spec p (n + 4)) as [H2|H2].
  { rewrite nth_error_app1 by (cbn; lia). reflexivity. }
  rewrite nth_error_app2 by (cbn; lia). cbn [length].
  destruct (Nat.ltb_spec p (2 * n + 4)) as [H3|H3].
  { rewrite nth_error_app1 by (rewrite map_length, seq_length; lia).
    erewrite map_nth_error; [|rewrite nth_error_seq by lia; reflexivity]. do 2 f_equal. lia. }
  rewrite nth_error_app2 by (rewrite map_length, seq_length; lia).
  rewrite map_length, seq_length.
  destruct (Nat.ltb_spec p (2 * n + 7)) as [H4|H4].
  { rewrite nth_error_app1 by (cbn; lia). f_equal. lia. }
  rewrite nth_error_app2 by (cbn; lia). cbn [length]. f_equal. lia.
Qed.

Lemma prog_none : forall n sh p, nth_error (prog n sh) p = None <-> plen n sh <= p.
Proof. intros. rewrite nth_error_None, prog_length. reflexivity. Qed.

Lemma prog_lt : forall n sh p a, nth_error (prog n sh) p = Some a -> p < plen n sh.
Proof. intros n sh p a H. rewrite <- prog_length. exact (nth_error_lt _ _ _ H). Qed.

Inductive at_pos (n : nat) (sh : shape) (p : nat) : act -> Prop :=
| AtGen : p < n -> at_pos n sh p (AGen p)
| AtWait1 : p = n -> at_pos n sh p (AWait 1)
| AtClear : p = n + 1 -> at_pos n sh p AClear
| AtWait2 : p = n + 2 -> at_pos n sh p (AWait 2)
| AtStart : p = n + 3 -> at_pos n sh p ATsStart
| AtCall : n + 4 <= p < 2 * n + 4 -> at_pos n sh p (ACall (p - (n + 4)))
| AtEnd : p = 2 * n + 4 -> at_pos n sh p ATsEnd
| AtWait3 : p = 2 * n + 5 -> at_pos n sh p (AWait 3)
| AtSnapshot : p = 2 * n + 6 -> at_pos n sh p ASnapshot
| AtDrop k o : 2 * n + 7 <= p < plen n sh -> at_pos n sh p (ADrop k o).

Lemma prog_at : forall n sh p a, nth_error (prog n sh) p = Some a -> at_pos n sh p a.
Proof.
  intros n sh p a H. pose proof (prog_lt _ _ _ _ H) as PL. rewrite prog_nth in H.
  destruct (Nat.ltb_spec p n) as [H1|H1].
  { injection H as <-. constructor. lia. }
  destruct (Nat.ltb_spec p (n + 4)) as [H2|H2].
  { assert (p - n = 0 \/ p - n = 1 \/ p - n = 2 \/ p - n = 3) as [E|[E|[E|E]]] by lia;
      rewrite E in H; injection H as <-; constructor; lia. }
  destruct (Nat.ltb_spec p (2 * n + 4)) as [H3|H3].
  { injection H as <-. constructor. lia. }
  destruct (Nat.ltb_spec p (2 * n + 7)) as [H4|H4].
  { assert (p - (2 * n + 4) = 0 \/ p - (2 * n + 4) = 1 \/ p - (2 * n + 4) = 2) as [E|[E|E]] by lia;
      rewrite E in H; injection H as <-; constructor; lia. }
  apply nth_error_In in H. destruct (drops_are_drops _ _ _ H) as (k & o & ->). constructor. lia.
Qed.

Lemma iswait_iff : forall n p, iswait n p = true <-> p = n \/ p = n + 2 \/ p = 2 * n + 5.
Proof. intros. unfold iswait. rewrite !orb_true_iff, !Nat.eqb_eq. tauto. Qed.

Lemma userpos_iff : forall n sh p,
  userpos n sh p = true <-> p < n \/ n + 4 <= p < 2 * n + 4 \/ 2 * n + 7 <= p < plen n sh.
Proof.
  intros. unfold userpos. rewrite !orb_true_iff, !andb_true_iff, !Nat.ltb_lt, !Nat.leb_le. tauto.
Qed.

Definition wait_act (a : act) : bool := match a with AWait _ => true | _ => false end.

Lemma prog_kind : forall n sh p a,
  nth_error (prog n sh) p = Some a -> wait_act a = iswait n p /\ faultable a = userpos n sh p.
Proof.
  intros n sh p a H.
  destruct (prog_at _ _ _ _ H) as [L|L|L|L|L|L|L|L|L|k o L]; cbn [wait_act faultable]; split; symmetry;
    first [apply iswait_iff|apply userpos_iff|apply not_true_iff_false; rewrite ?iswait_iff, ?userpos_iff]; lia.
Qed.

(** The hypotheses of each case of [tcase] and [scase] carry the names a [destruct] gives them. *)
Inductive tcase (c : config) (r i : nat) (th : thread) (b : barrier) : thread -> barrier -> Prop :=
| TLeaveRun g (M : md th = Run) (BL : blk th = Some g) (NE : g <> bgen b) :
    tcase c r i th b (next_pc (set_blk th None)) b
| TLeaveUnw g (M : md th = Unwind) (BL : blk th = Some g) (NE : g <> bgen b) :
    tcase c r i th b (set_blk th None) b
| TReturn (M : md th = Run) (BL : blk th = None) (PL : plen (ssize c r) (shp c) <= pc th) :
    tcase c r i th b (set_md th Returned) b
| TWaitRel w (M : md th = Run) (BL : blk th = None)
    (NA : nth_error (prog (ssize c r) (shp c)) (pc th) = Some (AWait w))
    (W : iswait (ssize c r) (pc th) = true) (FULL : nthreads c <= S (bcount b)) :
    tcase c r i th b (next_pc (set_rem th (pred (remaining th)))) {| bcount := 0; bgen := S (bgen b) |}
| TWaitBlk w (M : md th = Run) (BL : blk th = None)
    (NA : nth_error (prog (ssize c r) (shp c)) (pc th) = Some (AWait w))
    (W : iswait (ssize c r) (pc th) = true) (LT : S (bcount b) < nthreads c) :
    tcase c r i th b (set_blk (set_rem th (pred (remaining th))) (Some (bgen b)))
          {| bcount := S (bcount b); bgen := bgen b |}
| TPanic a (M : md th = Run) (BL : blk th = None)
    (NA : nth_error (prog (ssize c r) (shp c)) (pc th) = Some a)
    (U : userpos (ssize c r) (shp c) (pc th) = true) (FL : fault c i r (pc th) = true) :
    tcase c r i th b (set_md th (if guard c then Unwind else Unwound)) b
| TExec a (M : md th = Run) (BL : blk th = None)
    (NA : nth_error (prog (ssize c r) (shp c)) (pc th) = Some a)
    (W : iswait (ssize c r) (pc th) = false)
    (FL : userpos (ssize c r) (shp c) (pc th) = true -> fault c i r (pc th) = false) :
    tcase c r i th b (exec a (allocs c i r (pc th)) th) b
| TUnwDone (M : md th = Unwind) (BL : blk th = None) (R0 : remaining th = 0) :
    tcase c r i th b (set_md th Unwound) b
| TUnwRel k (M : md th = Unwind) (BL : blk th = None) (RK : remaining th = S k)
    (FULL : nthreads c <= S (bcount b)) :
    tcase c r i th b (set_rem th k) {| bcount := 0; bgen := S (bgen b) |}
| TUnwBlk k (M : md th = Unwind) (BL : blk th = None) (RK : remaining th = S k)
    (LT : S (bcount b) < nthreads c) :
    tcase c r i th b (set_blk (set_rem th k) (Some (bgen b))) {| bcount := S (bcount b); bgen := bgen b |}.

(** The configuration is the repaired code: the guard exists and every
    benchmark thread has its thread-local allocation info. *)
Definition fixed_code (c : config) : Prop := guard c = true /\ forall i, has_info c i = true.

Lemma tprog_info : forall c r i, has_info c i = true -> tprog c r i = prog (ssize c r) (shp c).
Proof. intros c r i H. unfold tprog. rewrite H. reflexivity. Qed.

Lemma tstep_run : forall c r i th b,
  md th = Run -> blk th = None ->
  tstep c r i th b =
  match nth_error (tprog c r i) (pc th) with
  | None => Some (set_md th Returned, b)
  | Some a =>
    if wait_act a then
      let th1 := set_rem th (pred (remaining th)) in
      let (b', released) := arrive (nthreads c) b in
      Some (if released then next_pc th1 else set_blk th1 (Some (bgen b)), b')
    else if faultable a && fault c i r (pc th)
    then Some (set_md th (if guard c then Unwind else Unwound), b)
    else Some (exec a (allocs c i r (pc th)) th, b)
  end.
Proof. intros c r i th b M B. unfold tstep. rewrite M, B. destruct (nth_error _ _) as [[]|]; reflexivity. Qed.

Lemma tstep_cases : forall c r i th b th' b',
  has_info c i = true ->
  tstep c r i th b = Some (th', b') -> tcase c r i th b th' b'.
Proof.
  intros c r i th b th' b' HI H.
  destruct (md th) eqn:M; destruct (blk th) as [g|] eqn:B;
    try rewrite (tstep_run _ _ _ _ _ M B), (tprog_info _ _ _ HI) in H;
    unfold tstep in H; rewrite ?M, ?B in H; try discriminate.
  - destruct (Nat.eqb_spec g (bgen b)); [discriminate|]. injection H as <- <-. apply TLeaveRun with g; auto.
  - destruct (nth_error (prog (ssize c r) (shp c)) (pc th)) as [a|] eqn:N.
    + destruct (prog_kind _ _ _ _ N) as [W F]. rewrite F in H.
      destruct (wait_act a) eqn:IW.
      * destruct a; try discriminate IW. cbv zeta in H. unfold arrive in H.
        destruct (Nat.ltb_spec (S (bcount b)) (nthreads c)); injection H as <- <-;
          [apply TWaitBlk with w|apply TWaitRel with w]; auto.
      * destruct (userpos (ssize c r) (shp c) (pc th)) eqn:U; cbn [andb] in H;
          [destruct (fault c i r (pc th)) eqn:FL|]; injection H as <- <-.
        -- apply TPanic with a; auto.
        -- apply TExec; auto.
        -- apply TExec; auto. rewrite U. discriminate.
    + injection H as <- <-. apply prog_none in N. apply TReturn; auto.
  - destruct (Nat.eqb_spec g (bgen b)); [discriminate|]. injection H as <- <-. apply TLeaveUnw with g; auto.
  - destruct (remaining th) as [|k] eqn:R.
    + injection H as <- <-. apply TUnwDone; auto.
    + unfold arrive in H. destruct (Nat.ltb_spec (S (bcount b)) (nthreads c)); injection H as <- <-;
        [apply TUnwBlk|apply TUnwRel]; auto.
Qed.

Lemma exec_pc : forall a ops th, pc (exec a ops th) = S (pc th).
Proof. destruct a; reflexivity. Qed.
Lemma exec_md : forall a ops th, md (exec a ops th) = md th.
Proof. destruct a; reflexivity. Qed.
Lemma exec_blk : forall a ops th, blk (exec a ops th) = blk th.
Proof. destruct a; reflexivity. Qed.
Lemma exec_remaining : forall a ops th, remaining (exec a ops th) = remaining th.
Proof. destruct a; reflexivity. Qed.

Inductive scase (c : config) (st : state) : label -> state -> Prop :=
| SStart (G : gp st = GIdle) (R : round st < nrounds c) :
    scase c st LStart {| gp := GRun; round := round st; bar := {| bcount := 0; bgen := 0 |}; ths := map fresh (ths st) |}
| SFinish (G : gp st = GIdle) (R : nrounds c <= round st) :
    scase c st LStart {| gp := GEnd None; round := round st; bar := bar st; ths := ths st |}
| SJoinPanic k (G : gp st = GRun) (F : forallb finished (ths st) = true)
    (X : find_idx (fun th => negb (returned th)) (ths st) = Some k) :
    scase c st LJoin {| gp := GEnd (Some k); round := round st; bar := bar st; ths := ths st |}
| SJoinOk (G : gp st = GRun) (F : forallb finished (ths st) = true)
    (X : find_idx (fun th => negb (returned th)) (ths st) = None) :
    scase c st LJoin {| gp := GIdle; round := S (round st); bar := bar st; ths := ths st |}
| SThread i th th' b' (G : gp st = GRun) (N : nth_error (ths st) i = Some th)
    (TC : tcase c (round st) i th (bar st) th' b') :
    scase c st (LThread i) {| gp := GRun; round := round st; bar := b'; ths := upd i th' (ths st) |}.

Lemma step_cases : forall c st l st',
  (forall i, has_info c i = true) -> step c st l = Some st' -> scase c st l st'.
Proof.
  intros c st l st' HI H. unfold step in H.
  destruct l as [| |i]; destruct (gp st) eqn:G; try discriminate.
  - destruct (Nat.ltb_spec (round st) (nrounds c)); inversion H; subst; [apply SStart|apply SFinish]; auto.
  - destruct (forallb finished (ths st)) eqn:F; [|discriminate].
    destruct (find_idx (fun th => negb (returned th)) (ths st)) eqn:I; inversion H; subst;
      [eapply SJoinPanic|eapply SJoinOk]; eauto.
  - destruct (nth_error (ths st) i) as [th|] eqn:N; [|discriminate].
    destruct (tstep c (round st) i th (bar st)) as [[th' b']|] eqn:T; [|discriminate].
    inversion H; subst. eapply SThread; eauto. apply tstep_cases; auto.
Qed.

Inductive exec_from (c : config) : state -> list label -> state -> Prop :=
| ENil st : exec_from c st [] st
| ECons st l st' tr st'' : step c st l = Some st' -> exec_from c st' tr st'' -> exec_from c st (l :: tr) st''.

Definition reachable (c : config) (st : state) : Prop := exists tr, exec_from c (init c) tr st.

Lemma exec_from_snoc : forall c st tr st' l st'',
  exec_from c st tr st' -> step c st' l = Some st'' -> exec_from c st (tr ++ [l]) st''.
Proof.
  intros c st tr st' l st'' H. induction H; intros S; cbn.
  - econstructor; eauto. constructor.
  - econstructor; eauto.
Qed.

Lemma reachable_step : forall c st l st', reachable c st -> step c st l = Some st' -> reachable c st'.
Proof. intros c st l st' [tr E] S. exists (tr ++ [l]). eapply exec_from_snoc; eauto. Qed.

(** Induction over the reachable states; the step may use that its source is reachable. *)
Lemma reachable_inv : forall c (P : state -> Prop),
  P (init c) ->
  (forall st l st', reachable c st -> P st -> step c st l = Some st' -> P st') ->
  forall st, reachable c st -> P st.
Proof.
  intros c P P0 PS st [tr E].
  assert (forall s tr0 s', exec_from c s tr0 s' -> reachable c s -> P s -> P s') as G.
  { intros s tr0 s' E0. induction E0; intros R HP; [exact HP|].
    apply IHE0; [eapply reachable_step; eauto|eapply PS; eauto]. }
  apply (G _ _ _ E); [exists []; constructor|exact P0].
Qed.
