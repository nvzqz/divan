(** C12: the tree [run_action] builds against a tree-free description.
    Every leaf's chain of (raw name, group slot) pairs is determined by its raw
    path alone: the slot at prefix P holds the last registered group whose key
    ([attach_key]: module path + the name of the sibling its raw name matches up to "r#") is P. *)
From Coq Require Import Permutation.
From DivanV Require Import Base.Res Model.Registry Model.Tree Model.Driver
  Proofs.TreeBase Proofs.DriverExec Proofs.DriverC14 Proofs.TreeLeaves Proofs.ListFacts.
Local Open Scope N_scope.

Definition chain := list (str * option group_entry).
Definition cleaf := (chain * any_entry * option (list N))%type.

Definition cprepend (x : str * option group_entry) (l : cleaf) : cleaf := (x :: fst (fst l), snd (fst l), snd l).

Fixpoint leaves_rel (t : tree) : list cleaf :=
  match t with
  | Leaf e a => [([], e, a)]
  | Parent r g ch => map (cprepend (r, g)) (flat_map leaves_rel ch)
  end.

Definition case_of (c : cfg) (pp : str) (po : option opts) (x : cleaf) : list xcase :=
  let ch := fst (fst x) in
  let e := snd (fst x) in
  let pp' := fold_left (fun p y => join_path p (chain_display y)) ch pp in
  let po' := fold_left (fun o y => merge_opts o (chain_opts y)) ch po in
  let path := join_path pp' (entry_display e) in
  let options := merge_opts po' (m_opts (entry_meta e)) in
  if leaf_ignored c options then []
  else match entry_runner e with
       | RPlain => [(entry_id e, path, None)]
       | RArgs _ vals => flat_map (arg_case e vals path) (match snd x with Some l => l | None => [] end)
       end.

Lemma case_of_prepend : forall c pp po r g ch x,
  case_of c pp po (cprepend (r, g) x)
  = case_of c (join_path pp (display_name (Parent r g ch))) (merge_opts po (node_opts (Parent r g ch))) x.
Proof. intros. destruct g; reflexivity. Qed.

Lemma exec_forest_by_chains : forall c l pp po,
  exec_forest c pp po l = flat_map (case_of c pp po) (flat_map leaves_rel l).
Proof.
  intros c. unfold exec_forest. induction l as [|e a tl IHtl|r g ch tl IHch IHtl] using forest_ind; intros pp po.
  - reflexivity.
  - cbn [flat_map leaves_rel app]. rewrite IHtl. reflexivity.
  - cbn [flat_map exec_node leaves_rel]. rewrite flat_map_app, IHch, IHtl, flat_map_map.
    rewrite (flat_map_ext _ _ (case_of_prepend c pp po r g ch)). reflexivity.
Qed.

Fixpoint find_parent (r : str) (l : list tree) : option (option group_entry * list tree) :=
  match l with
  | [] => None
  | Parent r' g ch :: tl => if str_eqb r' r then Some (g, ch) else find_parent r tl
  | Leaf _ _ :: tl => find_parent r tl
  end.

Lemma find_parent_none : forall r l, ~ In r (parent_names l) -> find_parent r l = None.
Proof.
  intros r. induction l as [|x tl IH]; intro H; [reflexivity|].
  destruct x as [r' g ch|e a]; cbn [find_parent].
  - destruct (str_eqb r' r) eqn:E.
    + apply str_eqb_spec in E. subst. exfalso. apply H. left. reflexivity.
    + apply IH. intro Hin. apply H. right. exact Hin.
  - apply IH. exact H.
Qed.

Lemma find_parent_app : forall r l1 l2,
  find_parent r (l1 ++ l2) = match find_parent r l1 with Some x => Some x | None => find_parent r l2 end.
Proof.
  intros r. induction l1 as [|x tl IH]; intro l2; [reflexivity|].
  destruct x as [r' g ch|e a]; cbn [find_parent app]; [destruct (str_eqb r' r); [reflexivity|]|]; apply IH.
Qed.

Lemma find_parent_some_in : forall r l x, find_parent r l = Some x -> In r (parent_names l).
Proof.
  intros r. induction l as [|t tl IH]; intros x H; [discriminate|].
  destruct t as [r' g ch|e a]; cbn [find_parent] in H; [|apply (IH x H)].
  destruct (str_eqb r' r) eqn:E; [apply str_eqb_spec in E; left; exact E|right; apply (IH x H)].
Qed.

Lemma find_parent_unique : forall r g ch l,
  NoDup (parent_names l) -> In (Parent r g ch) l -> find_parent r l = Some (g, ch).
Proof.
  intros r g ch l Hnd Hin. apply in_split in Hin. destruct Hin as [A [B Hl]]. subst l.
  rewrite parent_names_app in Hnd. apply NoDup_remove_2 in Hnd.
  rewrite find_parent_app, find_parent_none by (intro Hin; apply Hnd; apply in_or_app; left; exact Hin).
  cbn [find_parent]. rewrite str_eqb_refl. reflexivity.
Qed.

(** [insert_group] as a recursion on the key, every component matched exactly. *)
Fixpoint ig (key : list str) (g : group_entry) (l : list tree) : list tree :=
  match key with
  | [] => l
  | k :: key' =>
      or_same l (update_first (is_parent_named k)
                   (match key' with [] => set_group g | _ :: _ => map_children (ig key' g) end) l)
  end.

Lemma descend_ig : forall g raw comps l,
  descend comps (fun t => or_same t (update_first (is_parent_named raw) (set_group g) t)) l
  = ig (comps ++ [raw]) g l.
Proof.
  intros g raw. induction comps as [|c rest IH]; intro l; [reflexivity|].
  cbn [descend app ig]. destruct (rest ++ [raw]) as [|k key'] eqn:E.
  - destruct rest; discriminate.
  - f_equal. apply update_first_ext; [reflexivity|]. intro x. apply map_children_ext. intro l0. rewrite IH. reflexivity.
Qed.

(** Where a group attaches.  The walk along the group's module path is exact;
    the final match is modulo a leading "r#": the group attaches to the first
    sibling whose name equals its raw name up to that prefix.  [attach_name] is
    that sibling's spelling (the group's own spelling if there is none), computed
    from the names in the forest only ([skel]). *)
Inductive skel := SLeaf | SNode (r : str) (ch : list skel).
Fixpoint skel_of (t : tree) : skel :=
  match t with Leaf _ _ => SLeaf | Parent r _ ch => SNode r (map skel_of ch) end.

Fixpoint attach_name (raw : str) (l : list skel) : str :=
  match l with
  | [] => raw
  | SNode r _ :: tl => if str_eqb (strip_raw r) (strip_raw raw) then r else attach_name raw tl
  | SLeaf :: tl => attach_name raw tl
  end.

Lemma attach_name_strip : forall raw l, strip_raw (attach_name raw l) = strip_raw raw.
Proof.
  intros raw. induction l as [|[|r ch] tl IH]; cbn; [reflexivity|exact IH|].
  destruct (str_eqb (strip_raw r) (strip_raw raw)) eqn:E; [apply str_eqb_spec in E; exact E|exact IH].
Qed.

Fixpoint skel_children (c : str) (l : list skel) : option (list skel) :=
  match l with
  | [] => None
  | SNode r ch :: tl => if str_eqb r c then Some ch else skel_children c tl
  | SLeaf :: tl => skel_children c tl
  end.

Lemma skel_children_app : forall c a b,
  skel_children c (a ++ b) = match skel_children c a with Some x => Some x | None => skel_children c b end.
Proof.
  intros c. induction a as [|[|r ch] tl IH]; intro b; cbn; [reflexivity|apply IH|].
  destruct (str_eqb r c); [reflexivity|apply IH].
Qed.

Lemma skel_children_absent : forall c l, ~ In c (parent_names l) -> skel_children c (map skel_of l) = None.
Proof.
  intros c. induction l as [|[r g ch|e a] tl IH]; intro H; cbn; [reflexivity| |].
  - destruct (str_eqb r c) eqn:E.
    + apply str_eqb_spec in E. subst. exfalso. apply H. left. reflexivity.
    + apply IH. intro Hin. apply H. right. exact Hin.
  - apply IH. exact H.
Qed.

Fixpoint attach_last (comps : list str) (raw : str) (l : list skel) : str :=
  match comps with
  | [] => attach_name raw l
  | c :: rest => match skel_children c l with Some ch => attach_last rest raw ch | None => raw end
  end.

Fixpoint skel_level (p : list str) (l : list skel) : option (list skel) :=
  match p with
  | [] => Some l
  | c :: rest => match skel_children c l with Some ch => skel_level rest ch | None => None end
  end.

Lemma skel_level_app : forall p q l lv, skel_level (p ++ q) l = Some lv ->
  exists lp, skel_level p l = Some lp /\ skel_level q lp = Some lv.
Proof.
  induction p as [|c rest IH]; intros q l lv H; cbn in *; [exists l; split; [reflexivity|exact H]|].
  destruct (skel_children c l) as [ch|]; [apply IH; exact H|discriminate].
Qed.

Lemma attach_last_level : forall comps raw l,
  attach_last comps raw l = match skel_level comps l with Some lv => attach_name raw lv | None => raw end.
Proof.
  induction comps as [|c rest IH]; intros raw l; cbn; [reflexivity|].
  destruct (skel_children c l); [apply IH|reflexivity].
Qed.

Definition raw_key_s (sk : list skel) (g : group_entry) : list str :=
  module_components (g_meta g) ++ [attach_last (module_components (g_meta g)) (m_raw (g_meta g)) sk].
Definition raw_key (l : list tree) (g : group_entry) : list str := raw_key_s (map skel_of l) g.

Lemma update_first_raw_named : forall raw f l,
  update_first (is_parent_named_raw raw) f l = update_first (is_parent_named (attach_name raw (map skel_of l))) f l.
Proof.
  intros raw f. induction l as [|x tl IH]; [reflexivity|]. cbn [map update_first].
  destruct x as [r g ch|e a]; cbn [skel_of attach_name is_parent_named_raw is_parent_named].
  - destruct (str_eqb (strip_raw r) (strip_raw raw)) eqn:E.
    + rewrite str_eqb_refl. reflexivity.
    + assert (Hn : str_eqb r (attach_name raw (map skel_of tl)) = false).
      { destruct (str_eqb r (attach_name raw (map skel_of tl))) eqn:E2; [|reflexivity].
        apply str_eqb_spec in E2. rewrite E2, attach_name_strip, str_eqb_refl in E. discriminate. }
      rewrite Hn, IH. reflexivity.
  - rewrite IH. reflexivity.
Qed.

Lemma update_first_children : forall m F1 F2 l,
  (forall ch, skel_children m (map skel_of l) = Some (map skel_of ch) -> F1 ch = F2 ch) ->
  update_first (is_parent_named m) (map_children F1) l = update_first (is_parent_named m) (map_children F2) l.
Proof.
  intros m F1 F2. induction l as [|x tl IH]; intro H; [reflexivity|]. cbn [update_first].
  destruct x as [r g ch|e a]; cbn [is_parent_named].
  - cbn [map skel_of skel_children] in H. destruct (str_eqb r m) eqn:E.
    + cbn [map_children]. rewrite (H ch eq_refl). reflexivity.
    + rewrite (IH H). reflexivity.
  - cbn [map skel_of skel_children] in H. rewrite (IH H). reflexivity.
Qed.

Lemma descend_ig_raw : forall g raw comps l,
  descend comps (fun t => or_same t (update_first (is_parent_named_raw raw) (set_group g) t)) l
  = ig (comps ++ [attach_last comps raw (map skel_of l)]) g l.
Proof.
  intros g raw. induction comps as [|c rest IH]; intro l.
  - cbn [descend app attach_last ig]. rewrite update_first_raw_named. reflexivity.
  - cbn [descend app ig attach_last].
    destruct (rest ++ [match skel_children c (map skel_of l) with
                       | Some ch => attach_last rest raw ch
                       | None => raw end]) as [|k key'] eqn:E; [destruct rest; discriminate|].
    f_equal. apply update_first_children. intros ch Hch. rewrite IH. rewrite Hch in E. rewrite E. reflexivity.
Qed.

Lemma insert_group_ig : forall l g, insert_group l g = ig (raw_key l g) g l.
Proof. intros. unfold insert_group, raw_key, raw_key_s. apply descend_ig_raw. Qed.

Lemma skel_update_first : forall p f l l',
  (forall x, skel_of (f x) = skel_of x) -> update_first p f l = Some l' -> map skel_of l' = map skel_of l.
Proof.
  intros p f. induction l as [|x tl IH]; intros l' Hf H; cbn in H; [discriminate|].
  destruct (p x).
  - inversion H; subst. cbn. rewrite Hf. reflexivity.
  - destruct (update_first p f tl) as [tl'|] eqn:E; [|discriminate]. inversion H; subst. cbn. rewrite (IH tl' Hf eq_refl). reflexivity.
Qed.

Lemma skel_ig : forall key g l, map skel_of (ig key g l) = map skel_of l.
Proof.
  induction key as [|k key' IH]; intros g l; [reflexivity|]. cbn [ig].
  destruct (update_first _ _ l) as [l'|] eqn:E; cbn [or_same]; [|reflexivity].
  eapply skel_update_first; [|exact E]. intros [r g0 ch|e a]; destruct key'; cbn [skel_of map_children set_group]; try reflexivity.
  rewrite IH. reflexivity.
Qed.

Lemma skel_insert_group : forall g l, map skel_of (insert_group l g) = map skel_of l.
Proof. intros. rewrite insert_group_ig. apply skel_ig. Qed.

Lemma skel_fold_groups : forall groups l, map skel_of (fold_left insert_group groups l) = map skel_of l.
Proof. induction groups as [|g gs IH]; intro l; cbn [fold_left]; [reflexivity|]. rewrite IH. apply skel_insert_group. Qed.

Lemma raw_key_ig : forall key g l g', raw_key (ig key g l) g' = raw_key l g'.
Proof. intros. unfold raw_key. rewrite skel_ig. reflexivity. Qed.

(** The built tree: every group inserted at the key fixed by the names of the benches' tree. *)
Definition attach_key (benches : list bench_entry) (groups : list group_entry) (g : group_entry) : list str :=
  raw_key (from_benches (all_entries benches groups)) g.

Fixpoint upd (key : list str) (g : group_entry) (ch : chain) : chain :=
  match key, ch with
  | k :: key', (r, s) :: tl =>
      if str_eqb k r then match key' with [] => (r, Some g) :: tl | _ :: _ => (r, s) :: upd key' g tl end
      else ch
  | _, _ => ch
  end.

Lemma upd_nil : forall key g, upd key g [] = [].
Proof. intros [|k key'] g; reflexivity. Qed.

Lemma upd_cons : forall k key' g r s tl,
  upd (k :: key') g ((r, s) :: tl)
  = if str_eqb k r then (r, match key' with [] => Some g | _ :: _ => s end) :: upd key' g tl else (r, s) :: tl.
Proof. intros. cbn [upd]. destruct (str_eqb k r), key'; reflexivity. Qed.

Lemma str_eqb_sym : forall a b, str_eqb a b = str_eqb b a.
Proof.
  intros a b. destruct (str_eqb a b) eqn:E1, (str_eqb b a) eqn:E2; try reflexivity.
  - apply str_eqb_spec in E1. subst. rewrite str_eqb_refl in E2. discriminate.
  - apply str_eqb_spec in E2. subst. rewrite str_eqb_refl in E1. discriminate.
Qed.

Definition rechain (f : chain -> chain) (x : cleaf) : cleaf := (f (fst (fst x)), snd (fst x), snd x).

Lemma map_rechain_id : forall f l, (forall ch, f ch = ch) -> map (rechain f) l = l.
Proof.
  intros f l H. rewrite <- (map_id l) at 2. apply map_ext. intros [[ch e] a]. unfold rechain. cbn. rewrite H. reflexivity.
Qed.

Lemma rechain_upd_prepend : forall k key' g r s x,
  rechain (upd (k :: key') g) (cprepend (r, s) x)
  = if str_eqb k r then cprepend (r, match key' with [] => Some g | _ :: _ => s end) (rechain (upd key' g) x)
    else cprepend (r, s) x.
Proof. intros. unfold rechain, cprepend. cbn [fst snd]. rewrite upd_cons. destruct (str_eqb k r); reflexivity. Qed.

Lemma leaves_upd_other : forall k key' g l, ~ In k (parent_names l) ->
  map (rechain (upd (k :: key') g)) (flat_map leaves_rel l) = flat_map leaves_rel l.
Proof.
  intros k key' g. induction l as [|t tl IH]; intro H; [reflexivity|]. cbn [flat_map]. rewrite map_app.
  unfold parent_names in H. cbn [flat_map] in H. rewrite in_app_iff in H.
  f_equal; [|apply IH; intro Hin; apply H; right; exact Hin].
  destruct t as [r s ch|e a]; [|reflexivity]. cbn [leaves_rel]. rewrite map_map. apply map_ext. intro x.
  rewrite rechain_upd_prepend. destruct (str_eqb k r) eqn:E; [|reflexivity].
  apply str_eqb_spec in E. subst r. exfalso. apply H. left. left. reflexivity.
Qed.

Lemma leaves_ig : forall key g l, trie_forest l ->
  flat_map leaves_rel (ig key g l) = map (rechain (upd key g)) (flat_map leaves_rel l).
Proof.
  induction key as [|k key' IH]; intros g l Hl; [symmetry; apply map_rechain_id; reflexivity|].
  cbn [ig]. destruct (update_first _ _ l) as [l'|] eqn:E; cbn [or_same].
  - apply update_first_some in E. destruct E as [l1 [g0 [ch0 [l2 [H1 [H2 _]]]]]]. subst l l'.
    destruct (trie_forest_split _ _ _ _ _ Hl) as [Hl1 [Hl2 [Hch _]]].
    rewrite !flat_map_app, !map_app. cbn [flat_map]. rewrite !map_app, !leaves_upd_other by assumption.
    f_equal. f_equal. cbn [leaves_rel]. rewrite map_map.
    rewrite (map_ext _ _ (rechain_upd_prepend k key' g k g0)), str_eqb_refl, <- map_map, <- (IH g ch0 Hch).
    destruct key'; reflexivity.
  - symmetry. apply leaves_upd_other. eapply update_first_none. exact E.
Qed.

(** [kf]: the key under which each group attaches. *)
Definition upd_all (kf : group_entry -> list str) (groups : list group_entry) (ch : chain) : chain :=
  fold_left (fun ch g => upd (kf g) g ch) groups ch.

Lemma leaves_fold_groups : forall T0 groups l, trie_forest l -> map skel_of l = map skel_of T0 ->
  flat_map leaves_rel (fold_left insert_group groups l)
  = map (rechain (upd_all (raw_key T0) groups)) (flat_map leaves_rel l).
Proof.
  intros T0. induction groups as [|g gs IH]; intros l Hl Hs; cbn [fold_left].
  - symmetry. apply map_rechain_id. reflexivity.
  - rewrite IH.
    + rewrite insert_group_ig, (leaves_ig _ _ _ Hl), map_map. unfold raw_key. rewrite Hs. reflexivity.
    + apply trie_insert_group. exact Hl.
    + rewrite skel_insert_group. exact Hs.
Qed.

(** [q_children] may take the new children to be non-empty: [inhab] (TreeEquiv.v) holds of a parent only then. *)
Section FromBenches.
  Variable q : tree -> bool.
  Hypothesis q_leaf : forall e, q (mk_leaf e) = true.
  Hypothesis q_single : forall r x, q x = true -> q (Parent r None [x]) = true.
  Hypothesis q_below : forall r g ch, q (Parent r g ch) = true -> forallb q ch = true.
  Hypothesis q_children : forall r g ch ch',
    q (Parent r g ch) = true -> forallb q ch' = true -> is_nil ch' = false -> q (Parent r g ch') = true.

  Lemma from_path_q : forall e rest m, q (from_path e m rest) = true.
  Proof. intros e. induction rest as [|n r IH]; intro m; cbn [from_path]; apply q_single; [apply q_leaf|apply IH]. Qed.

  Lemma insert_entry_forallb : forall e path t,
    forallb q t = true -> forallb q (insert_entry path e t) = true /\ is_nil (insert_entry path e t) = false.
  Proof.
    intros e. induction path as [|m rest IH]; intros t H; cbn [insert_entry].
    - split; [apply forallb_app_intro; [exact H|cbn; rewrite q_leaf; reflexivity]|destruct t; reflexivity].
    - destruct (update_first _ _ t) as [t'|] eqn:E.
      + split; [|eapply update_first_not_nil; exact E].
        eapply update_first_forallb; [|exact E|exact H].
        intros [r g ch|e0 a] Hx; [|exact Hx]. cbn [map_children].
        destruct (IH ch (q_below r g ch Hx)) as [H1 H2]. apply (q_children r g ch); assumption.
      + split; [|destruct t; reflexivity]. apply forallb_app_intro; [exact H|]. cbn [forallb]. rewrite andb_true_r.
        apply from_path_q.
  Qed.

  Lemma from_benches_forallb : forall es, forallb q (from_benches es) = true.
  Proof.
    intro es. apply (@fold_left_inv _ _ (fun t => forallb q t = true)); [|reflexivity].
    intros t e H. apply insert_entry_forallb. exact H.
  Qed.
End FromBenches.

Fixpoint no_groups (t : tree) : bool :=
  match t with
  | Leaf _ _ => true
  | Parent _ None ch => forallb no_groups ch
  | Parent _ (Some _) _ => false
  end.

Lemma no_groups_from_benches : forall es, forallb no_groups (from_benches es) = true.
Proof.
  apply from_benches_forallb.
  - reflexivity.
  - intros r x H. cbn. rewrite H. reflexivity.
  - intros r [g|] ch H; [discriminate|exact H].
  - intros r [g|] ch ch' H Hch' _; [discriminate|exact Hch'].
Qed.

Definition nones (rp : list str) : chain := map (fun r => (r, None)) rp.
Definition bare (x : rleaf) : cleaf := (nones (fst (fst x)), snd (fst x), snd x).

Lemma leaves_no_groups : forall l, forallb no_groups l = true -> flat_map leaves_rel l = map bare (raw_leaves l).
Proof.
  unfold raw_leaves. induction l as [|e a tl IHtl|r g ch tl IHch IHtl] using forest_ind; intro H.
  - reflexivity.
  - cbn [flat_map leaves_rel raw_leaves_node app map]. rewrite (IHtl H). reflexivity.
  - destruct g; [discriminate|]. cbn [forallb no_groups] in H. apply andb_true_iff in H. destruct H as [Hch Htl].
    cbn [flat_map leaves_rel raw_leaves_node]. rewrite map_app, (IHch Hch), (IHtl Htl), !map_map. reflexivity.
Qed.

Definition keyed_chain (kf : group_entry -> list str) (groups : list group_entry) (rp : list str) : chain :=
  upd_all kf groups (nones rp).
Definition rekey (kf : group_entry -> list str) (groups : list group_entry) (x : rleaf) : cleaf :=
  (keyed_chain kf groups (fst (fst x)), snd (fst x), snd x).

Lemma build_tree_leaves_rel : forall benches groups,
  flat_map leaves_rel (build_tree benches groups)
  = map (rekey (attach_key benches groups) groups) (raw_leaves (build_tree benches groups)).
Proof.
  intros. unfold build_tree. set (T0 := from_benches (all_entries benches groups)).
  rewrite raw_leaves_fold_groups, (leaves_fold_groups T0 groups T0 (trie_from_benches _) eq_refl).
  rewrite (leaves_no_groups T0 (no_groups_from_benches _)), map_map. reflexivity.
Qed.

Definition slot_fn := list str -> option group_entry.

Definition set_slot (key : list str) (g : group_entry) (f : slot_fn) : slot_fn :=
  fun P => if path_eqb P key then Some g else f P.

Definition last_with_key (kf : group_entry -> list str) (groups : list group_entry) (init : option group_entry)
  (P : list str) : option group_entry :=
  fold_left (fun acc g => if path_eqb P (kf g) then Some g else acc) groups init.

Lemma last_with_key_cons : forall kf g gs init P,
  last_with_key kf (g :: gs) init P = last_with_key kf gs (if path_eqb P (kf g) then Some g else init) P.
Proof. reflexivity. Qed.

Lemma path_eqb_spec : forall a b, path_eqb a b = true <-> a = b.
Proof. exact list_eqb_str_spec. Qed.

Lemma path_eqb_refl : forall a, path_eqb a a = true.
Proof. intro a. apply path_eqb_spec. reflexivity. Qed.

Lemma path_eqb_app_head : forall pre a b, path_eqb (pre ++ a) (pre ++ b) = path_eqb a b.
Proof.
  intros pre a b. induction pre as [|x pre IH]; [reflexivity|].
  unfold path_eqb in *. cbn [app list_eqb]. rewrite str_eqb_refl. exact IH.
Qed.

Lemma module_chain_ext : forall f f' comps pre,
  (forall a b, comps = a ++ b -> a <> [] -> f (pre ++ a) = f' (pre ++ a)) ->
  module_chain f pre comps = module_chain f' pre comps.
Proof.
  intros f f'. induction comps as [|c tl IH]; intros pre H; cbn [module_chain]; [reflexivity|].
  rewrite (H [c] tl) by (reflexivity || discriminate). f_equal. apply IH. intros a b E _.
  rewrite <- !app_assoc. apply (H (c :: a) b); [rewrite E; reflexivity|discriminate].
Qed.

Lemma nones_module_chain : forall rp pre, nones rp = module_chain (fun _ => None) pre rp.
Proof. induction rp as [|r tl IH]; intro pre; cbn; [reflexivity|]. f_equal. apply IH. Qed.

Lemma upd_module_chain : forall comps pre key g f,
  upd key g (module_chain f pre comps) = module_chain (set_slot (pre ++ key) g f) pre comps.
Proof.
  induction comps as [|c tl IH]; intros pre key g f; [apply upd_nil|].
  (* a key that does not start with [c] stands at none of the positions consulted *)
  assert (Hmiss : (forall suf, path_eqb (c :: suf) key = false) ->
                  module_chain (set_slot (pre ++ key) g f) pre (c :: tl) = module_chain f pre (c :: tl)).
  { intro H. apply module_chain_ext. intros [|a0 a] b E Ha; [congruence|]. injection E as <- _.
    unfold set_slot. rewrite path_eqb_app_head, H. reflexivity. }
  destruct key as [|k key']; [rewrite Hmiss; reflexivity|].
  destruct (str_eqb k c) eqn:E.
  - apply str_eqb_spec in E. subst k. cbn [module_chain]. rewrite upd_cons, str_eqb_refl, IH, <- app_assoc.
    unfold set_slot at 2. rewrite path_eqb_app_head. unfold path_eqb. cbn [list_eqb]. rewrite str_eqb_refl.
    destruct key'; reflexivity.
  - rewrite Hmiss.
    + cbn [module_chain]. rewrite upd_cons, E. reflexivity.
    + intro suf. unfold path_eqb. cbn [list_eqb]. rewrite str_eqb_sym, E. reflexivity.
Qed.

Lemma upd_all_module_chain : forall kf groups f rp,
  upd_all kf groups (module_chain f [] rp) = module_chain (fun P => last_with_key kf groups (f P) P) [] rp.
Proof.
  intros kf. induction groups as [|g gs IH]; intros f rp; [reflexivity|].
  unfold upd_all. cbn [fold_left]. rewrite (upd_module_chain rp [] (kf g) g f). apply IH.
Qed.

Lemma keyed_chain_slots : forall kf groups rp,
  keyed_chain kf groups rp = module_chain (last_with_key kf groups None) [] rp.
Proof. intros. unfold keyed_chain. rewrite (nones_module_chain rp []). apply upd_all_module_chain. Qed.

Lemma last_with_key_miss : forall kf groups init P,
  (forall h, In h groups -> kf h <> P) -> last_with_key kf groups init P = init.
Proof.
  intros kf. induction groups as [|g gs IH]; intros init P H; [reflexivity|].
  rewrite last_with_key_cons. destruct (path_eqb P (kf g)) eqn:E.
  - apply path_eqb_spec in E. exfalso. apply (H g (or_introl eq_refl)). symmetry. exact E.
  - apply IH. intros h Hh. apply H. right. exact Hh.
Qed.

Lemma last_with_key_in : forall kf groups init P h,
  NoDup (map kf groups) -> In h groups -> kf h = P -> last_with_key kf groups init P = Some h.
Proof.
  intros kf. induction groups as [|g gs IH]; intros init P h Hnd Hin Hk; [contradiction|].
  cbn in Hnd. inversion Hnd as [|? ? Hn Hnd']; subst. rewrite last_with_key_cons.
  destruct Hin as [Hin|Hin]; [|apply (IH _ (kf h) h Hnd' Hin eq_refl)].
  subst g. rewrite path_eqb_refl. apply last_with_key_miss. intros x Hx E. apply Hn. rewrite <- E. apply in_map. exact Hx.
Qed.

Lemma last_with_key_perm : forall kf gs gs' P, Permutation gs gs' -> NoDup (map kf gs) ->
  last_with_key kf gs None P = last_with_key kf gs' None P.
Proof.
  intros kf gs gs' P Hp Hnd.
  assert (Hnd' : NoDup (map kf gs')) by (eapply Permutation_NoDup; [apply Permutation_map; exact Hp|exact Hnd]).
  destruct (in_dec (list_eq_dec (list_eq_dec N.eq_dec)) P (map kf gs)) as [Hin|Hnot].
  - apply in_map_iff in Hin. destruct Hin as [h [Hk Hh]].
    rewrite (last_with_key_in kf gs None P h Hnd Hh Hk). symmetry.
    apply last_with_key_in; [exact Hnd'|apply (Permutation_in h Hp Hh)|exact Hk].
  - rewrite !last_with_key_miss; [reflexivity| |]; intros h Hh E; apply Hnot; rewrite <- E; apply in_map;
      [apply (Permutation_in h (Permutation_sym Hp) Hh)|exact Hh].
Qed.

Lemma last_with_key_ext : forall kf kf' gs, (forall g, In g gs -> kf g = kf' g) ->
  forall init P, last_with_key kf gs init P = last_with_key kf' gs init P.
Proof.
  intros kf kf'. induction gs as [|g tl IH]; intros H init P; [reflexivity|].
  rewrite !last_with_key_cons, (H g (or_introl eq_refl)). apply IH. intros x Hx. apply H. right. exact Hx.
Qed.

Lemma rekey_perm : forall kf kf' gs gs' x,
  Permutation gs gs' -> NoDup (map kf gs) -> (forall g, In g gs -> kf' g = kf g) ->
  rekey kf gs x = rekey kf' gs' x.
Proof.
  intros kf kf' gs gs' x Hp Hnd Hk. unfold rekey. rewrite !keyed_chain_slots. f_equal. f_equal.
  apply module_chain_ext. intros a b _ _. rewrite (last_with_key_perm kf gs gs' _ Hp Hnd).
  apply last_with_key_ext. intros g Hg. symmetry. apply Hk. apply (Permutation_in g (Permutation_sym Hp) Hg).
Qed.

(** What runs, said per entry: the entry's raw path decides names and options. *)
Definition keyed_case (c : cfg) (kf : group_entry -> list str) (groups : list group_entry) (e : any_entry) : list xcase :=
  case_of c [] None (rekey kf groups (rleaf_of e)).

Lemma exec_keyed : forall c benches groups,
  Permutation (exec_forest c [] None (build_tree benches groups))
              (flat_map (keyed_case c (attach_key benches groups) groups) (all_entries benches groups)).
Proof.
  intros c benches groups. rewrite exec_forest_by_chains, build_tree_leaves_rel.
  set (kf := attach_key benches groups).
  unfold keyed_case. rewrite <- (flat_map_map (case_of c [] None) (fun e => rekey kf groups (rleaf_of e))).
  apply Permutation_flat_map. rewrite <- (map_map rleaf_of (rekey kf groups)). apply Permutation_map. apply tree_complete.
Qed.

Lemma exec_keyed_filtered : forall c benches groups,
  Permutation (exec_forest c [] None (retain (c_filter c) (build_tree benches groups)))
              (filter (fun x => c_filter c (xpath x))
                      (flat_map (keyed_case c (attach_key benches groups) groups) (all_entries benches groups))).
Proof.
  intros. rewrite exec_retain by apply wf_build_tree. apply Permutation_filter. apply exec_keyed.
Qed.

Lemma all_entries_perm : forall b b' g g',
  Permutation b b' -> Permutation g g' -> Permutation (all_entries b g) (all_entries b' g').
Proof.
  intros. unfold all_entries. apply Permutation_app; [apply Permutation_map|apply Permutation_flat_map]; assumption.
Qed.

(** The attachment keys are those of the first tree; that the second registry attaches its groups at the same keys
    is a hypothesis ([attach_name_order_independent] in RawAttach.v gives it for one level of siblings, none
    differing from another only by a leading "r#"). *)
Lemma leaves_rel_order_independent : forall benches groups benches' groups',
  Permutation benches benches' -> Permutation groups groups' ->
  NoDup (map (attach_key benches groups) groups) ->
  (forall g, In g groups -> attach_key benches' groups' g = attach_key benches groups g) ->
  Permutation (flat_map leaves_rel (build_tree benches groups)) (flat_map leaves_rel (build_tree benches' groups')).
Proof.
  intros b g b' g' Hb Hg Hnd Hkf.
  rewrite !build_tree_leaves_rel, (map_ext _ _ (fun x => rekey_perm _ _ _ _ x Hg Hnd Hkf)). apply Permutation_map.
  eapply Permutation_trans; [apply tree_complete|].
  eapply Permutation_trans; [|apply Permutation_sym; apply tree_complete].
  apply Permutation_map. apply all_entries_perm; assumption.
Qed.

Lemma order_independent : forall c benches groups benches' groups',
  Permutation benches benches' -> Permutation groups groups' ->
  NoDup (map (attach_key benches groups) groups) ->
  (forall g, In g groups -> attach_key benches' groups' g = attach_key benches groups g) ->
  Permutation (exec_forest c [] None (retain (c_filter c) (build_tree benches groups)))
              (exec_forest c [] None (retain (c_filter c) (build_tree benches' groups'))).
Proof.
  intros c b g b' g' Hb Hg Hnd Hkf. rewrite !exec_retain by apply wf_build_tree. apply Permutation_filter.
  rewrite !exec_forest_by_chains. apply Permutation_flat_map. apply leaves_rel_order_independent; assumption.
Qed.

Definition entry_calls (e : any_entry) : list (N * option value) :=
  match entry_runner e with
  | RPlain => [(entry_id e, None)]
  | RArgs _ vals => map (fun v => (entry_id e, Some v)) vals
  end.
Definition call_of (x : xcase) : N * option value :=
  (fst (fst x), match snd x with Some iv => Some (snd iv) | None => None end).

Lemma arg_cases_all : forall e path vals pre,
  map call_of (flat_map (arg_case e (pre ++ vals) path) (map N.of_nat (seq (length pre) (length vals))))
  = map (fun v => (entry_id e, Some v)) vals.
Proof.
  intros e path. induction vals as [|v tl IH]; intro pre; [reflexivity|].
  cbn [length seq map flat_map]. unfold arg_case at 1. rewrite Nat2N.id.
  rewrite nth_error_app2 by apply le_n. rewrite Nat.sub_diag. cbn [nth_error app map call_of fst snd]. f_equal.
  specialize (IH (pre ++ [v])). rewrite <- app_assoc in IH. cbn [app] in IH.
  rewrite app_length in IH. cbn [length] in IH. rewrite Nat.add_1_r in IH. exact IH.
Qed.

Definition cfg_all : cfg :=
  {| c_run_ignored := RIYes; c_opts := {| o_ignore := None; o_sample_count := None |}; c_filter := fun _ => true; c_threads := [] |}.

Lemma leaf_ignored_all : forall o, leaf_ignored cfg_all o = false.
Proof. intros [[[[]|] sc]|]; reflexivity. Qed.

Lemma keyed_case_all : forall kf groups e, map call_of (keyed_case cfg_all kf groups e) = entry_calls e.
Proof.
  intros kf groups e. unfold keyed_case, case_of, entry_calls. rewrite leaf_ignored_all.
  unfold rleaf_of, rekey, leaf_args. cbn [fst snd]. destruct (entry_runner e) as [|o vals]; [reflexivity|].
  unfold index_list. apply (arg_cases_all e _ vals []).
Qed.

Lemma all_run_once : forall benches groups,
  Permutation (map call_of (exec_forest cfg_all [] None (retain (c_filter cfg_all) (build_tree benches groups))))
              (flat_map entry_calls (all_entries benches groups)).
Proof.
  intros benches groups.
  eapply Permutation_trans; [apply Permutation_map; apply exec_keyed_filtered|].
  rewrite filter_all by (intros; reflexivity).
  rewrite map_flat_map. rewrite (flat_map_ext _ _ (keyed_case_all (attach_key benches groups) groups)). apply Permutation_refl.
Qed.

(** F8: a module and a generic function of the same name share a node.
    crate "c": [#[bench_group(name = "G", ignore)] mod f { #[bench] fn a() {} }] beside
    [#[bench(types = [T])] fn f<T>() {}].  The tree runs [c::f::a] although its
    group says ignore, and whether it does depends on the registration order. *)
Definition w_c : str := [99].
Definition w_f : str := [102].
Definition w_a : str := [97].
Definition w_G : str := [71].
Definition w_cf : str := [99; 58; 58; 102].
Definition w_opts_ign : opts := {| o_ignore := Some true; o_sample_count := None |}.
Definition w_bench_a : bench_entry :=
  {| b_id := 0; b_meta := {| m_display := w_a; m_raw := w_a; m_modpath := w_cf; m_line := 2; m_col := 5; m_opts := None |};
     b_runner := RPlain |}.
Definition w_mod_group : group_entry :=
  {| g_id := 10; g_meta := {| m_display := w_G; m_raw := w_f; m_modpath := w_c; m_line := 1; m_col := 1; m_opts := Some w_opts_ign |};
     g_generic := None |}.
Definition w_fn_group : group_entry :=
  {| g_id := 11; g_meta := {| m_display := w_f; m_raw := w_f; m_modpath := w_c; m_line := 4; m_col := 1; m_opts := None |};
     g_generic := Some [[ {| ge_id := 1; ge_runner := RPlain; ge_kind := GType [105] |} ]] |}.
Definition cfg_plain : cfg :=
  {| c_run_ignored := RINo; c_opts := {| o_ignore := None; o_sample_count := None |}; c_filter := fun _ => true; c_threads := [] |}.

Definition runs_a (l : list xcase) : bool := existsb (fun x => fst (fst x) =? 0) l.

Example name_clash_refuted :
  (* the intended (flat) semantics: [a] is ignored *)
  runs_a (flat_exec cfg_plain [w_bench_a] [w_mod_group; w_fn_group]) = false /\
  (* the tree: [a] runs when the function's entry is registered after the module's ... *)
  runs_a (exec_forest cfg_plain [] None (build_tree [w_bench_a] [w_mod_group; w_fn_group])) = true /\
  (* ... and does not in the other registration order *)
  runs_a (exec_forest cfg_plain [] None (build_tree [w_bench_a] [w_fn_group; w_mod_group])) = false.
Proof. repeat split; vm_compute; reflexivity. Qed.

(** F8, second member: two generic functions of the same name under one
    module path (nested in different function bodies: [module_path!()] omits the
    enclosing function) share one node and one group slot.  A function that
    leaves a field unset takes the other's setting when that one is registered
    last; if both set the field, each leaf's own options decide and nothing leaks. *)
Definition s_gen (gid eid : N) (ty : str) (o : option opts) : group_entry :=
  {| g_id := gid; g_meta := {| m_display := w_f; m_raw := w_f; m_modpath := w_c; m_line := gid; m_col := 1; m_opts := o |};
     g_generic := Some [[ {| ge_id := eid; ge_runner := RPlain; ge_kind := GType ty |} ]] |}.
Definition s_first : group_entry := s_gen 20 1 [105] (Some w_opts_ign).                (* ignore = true *)
Definition s_second_unset : group_entry := s_gen 21 2 [106] None.                       (* no options *)
Definition s_second_set : group_entry :=
  s_gen 21 2 [106] (Some {| o_ignore := Some false; o_sample_count := None |}).         (* ignore = false *)
Definition runs_id (id : N) (l : list xcase) : bool := existsb (fun x => fst (fst x) =? id) l.

Example same_name_generic_refuted :
  (* as written: the second function's benchmark is not ignored *)
  runs_id 2 (flat_exec cfg_plain [] [s_first; s_second_unset]) = true /\
  (* the tree agrees when the second function is registered last ... *)
  runs_id 2 (exec_forest cfg_plain [] None (build_tree [] [s_first; s_second_unset])) = true /\
  (* ... and ignores it when the first one is *)
  runs_id 2 (exec_forest cfg_plain [] None (build_tree [] [s_second_unset; s_first])) = false.
Proof. repeat split; vm_compute; reflexivity. Qed.

Example same_name_generic_both_set :
  runs_id 2 (exec_forest cfg_plain [] None (build_tree [] [s_first; s_second_set])) = true /\
  runs_id 2 (exec_forest cfg_plain [] None (build_tree [] [s_second_set; s_first])) = true /\
  runs_id 1 (exec_forest cfg_plain [] None (build_tree [] [s_first; s_second_set])) = false /\
  runs_id 1 (exec_forest cfg_plain [] None (build_tree [] [s_second_set; s_first])) = false.
Proof. repeat split; vm_compute; reflexivity. Qed.
