(** Provenance of the allocation and counter figures of [compute_stats], the
    means, which counter kinds are reported, the proof that the model satisfies
    the boolean specification [stats_sb] used by the violation search, and the
    value stored for a per-input counter. *)
From DivanV Require Import Base.Res Model.Stats Proofs.StatsLists Proofs.Stats Proofs.StatsSb Proofs.ListFacts.
From Coq Require Import Permutation.
Local Open Scope N_scope.

Lemma index_from_range k l x : In x (index_from k l) -> k <= fst x < k + N.of_nat (length l).
Proof. intros H. apply In_index_from in H. destruct H as (n & Hn & ->). apply nth_error_lt in Hn. lia. Qed.

Lemma index_from_nodup k l : NoDup (map fst (index_from k l)).
Proof.
  revert k. induction l as [|a r IH]; intros k; cbn [index_from map]; constructor; [|apply IH].
  cbn [fst]. intros H. apply in_map_iff in H. destruct H as (x & E & H).
  apply index_from_range in H. lia.
Qed.

Lemma admissible_nodup durs sv : admissibleb durs sv = true -> NoDup (map fst sv).
Proof.
  intros H. eapply Permutation_NoDup; [apply Permutation_sym, Permutation_map, admissible_perm; exact H|].
  apply index_from_nodup.
Qed.

Lemma admissible_in durs sv x : admissibleb durs sv = true -> In x sv -> In x (indexed durs).
Proof. intros H. apply Permutation_in, admissible_perm, H. Qed.

Lemma admissible_index_lt durs sv x :
  admissibleb durs sv = true -> In x sv -> fst x < N.of_nat (length durs).
Proof. intros H Hx. apply (admissible_in _ _ _ H), index_from_range in Hx. apply Hx. Qed.

Lemma distinct_positions durs sv a b x y :
  admissibleb durs sv = true -> a <> b -> nth_error sv a = Some x -> nth_error sv b = Some y -> fst x <> fst y.
Proof.
  intros H Hab Hx Hy E. apply admissible_nodup in H. apply Hab.
  assert (a < length (map fst sv))%nat as La by (rewrite map_length; exact (nth_error_lt _ _ _ Hx)).
  rewrite NoDup_nth_error in H. apply H; [exact La|].
  rewrite !nth_error_map, Hx, Hy. cbn. f_equal. exact E.
Qed.

Lemma figures_of_index_eq inp x :
  figures_of_index inp (fst x) = figures_of_info (sample_alloc_info (in_allocs inp) (Some x)).
Proof. destruct x. reflexivity. Qed.

(** Beside a sample without a partner (odd median) every figure is paired with 0. *)
Lemma figures_pair_none o :
  combine (figures_of_info o) (figures_of_info None) = map (fun v => (v, 0)) (figures_of_info o).
Proof. reflexivity. Qed.

Lemma xq_eqb_refl n d : xq_eqb (Fin n d) (Fin n d) = true.
Proof. apply N.eqb_refl. Qed.

Lemma end_column inp o x :
  in_size inp <> 0 -> o = Some x ->
  Forall2 (fun q v => xq_eqb q (Fin v (in_size inp)) = true)
          (map (fun v => per_size v (xq_of_N (N.max (in_size inp) 1)))
               (figures_of_info (sample_alloc_info (in_allocs inp) o)))
          (figures_of_index inp (fst x)).
Proof.
  intros Hs ->. rewrite figures_of_index_eq. apply Forall2_map_self_l. intros v.
  rewrite N.max_l, per_size_val by lia. apply xq_eqb_refl.
Qed.

Lemma median_column_one inp sv mn mx md me tc counts x :
  in_size inp <> 0 ->
  Forall2 (fun q v => xq_eqb q (Fin v (in_size inp)) = true)
          (column_of median (assemble true inp sv [x] tc mn mx md me counts))
          (figures_of_index inp (fst x)).
Proof.
  intros Hs. rewrite column_of_median. cbn [nth_error length]. change (N.max (N.of_nat 1) 1) with 1.
  rewrite figures_pair_none, map_map, figures_of_index_eq. apply Forall2_map_self_l. intros v. cbn [fst snd].
  rewrite N.max_l, med_entry_val, N.add_0_r, N.mul_1_l by lia. apply xq_eqb_refl.
Qed.

Lemma median_column_two inp sv mn mx md me tc counts x y :
  in_size inp <> 0 ->
  Forall2 (fun q p => xq_eqb q (Fin (fst p + snd p) (2 * in_size inp)) = true)
          (column_of median (assemble true inp sv [x; y] tc mn mx md me counts))
          (combine (figures_of_index inp (fst x)) (figures_of_index inp (fst y))).
Proof.
  intros Hs. rewrite column_of_median. cbn [nth_error length]. change (N.max (N.of_nat 2) 1) with 2.
  rewrite !figures_of_index_eq. apply Forall2_map_self_l. intros p.
  rewrite N.max_l, med_entry_val by lia. apply xq_eqb_refl.
Qed.

Definition counts_u64 (inp : inputs) : Prop :=
  Forall (fun ci => Forall (fun c => c < 2 ^ 64) (ci_counts ci)) (in_counters inp).

Lemma count_for_in ci s c : count_for ci s = Some c -> In c (ci_counts ci).
Proof. unfold count_for. apply nth_error_In. Qed.

Lemma count_for_u64 ci s c :
  Forall (fun c => c < 2 ^ 64) (ci_counts ci) -> count_for ci s = Some c -> c < 2 ^ 64.
Proof. intros F H. rewrite Forall_forall in F. apply F, (count_for_in _ _ _ H). Qed.

Lemma sat_add_small a b : a + b < 2 ^ 128 -> sat_add 128 a b = a + b.
Proof. intros H. unfold sat_add. rewrite N.sub_1_r. apply N.min_l, N.lt_le_pred, H. Qed.

(** The saturating u128 sum of one or two u64 counts is exact, and their
    floor mean fits u64 again. *)
Lemma u64_sum a b : a < 2 ^ 64 -> b < 2 ^ 64 -> a + b < 2 ^ 128 /\ (a + b) / 2 < 2 ^ 64.
Proof.
  intros Ha Hb. split.
  - apply N.lt_le_trans with (2 ^ 64 + 2 ^ 64); [apply N.add_lt_mono; assumption|apply N.leb_le; reflexivity].
  - apply N.div_lt_upper_bound; [discriminate|]. revert Ha Hb. generalize (2 ^ 64). intros; lia.
Qed.

Lemma u64_mean_one a : a < 2 ^ 64 -> (sat_add 128 0 a / 1) mod 2 ^ 64 = a.
Proof.
  intros Ha. rewrite sat_add_small, N.add_0_l, N.div_1_r by (apply u64_sum; [reflexivity|exact Ha]).
  apply N.mod_small, Ha.
Qed.

Lemma u64_mean_two a b :
  a < 2 ^ 64 -> b < 2 ^ 64 -> (sat_add 128 (sat_add 128 0 a) b / 2) mod 2 ^ 64 = (a + b) / 2.
Proof.
  intros Ha Hb. destruct (u64_sum a b Ha Hb) as [H1 H2].
  rewrite (sat_add_small 0 a), N.add_0_l, sat_add_small by (assumption || (apply u64_sum; [reflexivity|exact Ha])).
  apply N.mod_small, H2.
Qed.

Lemma sum_div_len_u64 l :
  Forall (fun c => c < 2 ^ 64) l -> sum_list l / N.of_nat (length l) < 2 ^ 64.
Proof.
  intros F. destruct l as [|x r] eqn:E; [reflexivity|]. rewrite <- E in *.
  apply N.div_lt_upper_bound; [|apply sum_lt_len]; try exact F; rewrite E; discriminate.
Qed.

(** Column [selq]/[seln] of [st] shows the figures of the single sample [smp]:
    its duration, its allocation figures (0 if no allocation info was recorded
    for its index) and its counter values, each divided by the sample size. *)
Definition column_of_sample (inp : inputs) (st : stats)
           (selq : stats_set xq -> xq) (seln : stats_set N -> N) (smp : N * N) : Prop :=
  In smp (indexed (in_durs inp)) /\
  seln (st_time st) = snd smp / in_size inp /\
  Forall2 (fun x v => xq_eqb x (Fin v (in_size inp)) = true)
          (column_of selq st) (figures_of_index inp (fst smp)) /\
  Forall2 (fun ci o => forall set, o = Some set -> count_for ci smp = Some (seln set))
          (in_counters inp) (st_counts st).

(** The median column for an even number of samples: two different samples,
    figures averaged. *)
Definition median_of_two (inp : inputs) (st : stats) (m0 m1 : N * N) : Prop :=
  In m0 (indexed (in_durs inp)) /\ In m1 (indexed (in_durs inp)) /\ fst m0 <> fst m1 /\
  median (st_time st) = ((snd m0 + snd m1) / 2) / in_size inp /\
  Forall2 (fun x p => xq_eqb x (Fin (fst p + snd p) (2 * in_size inp)) = true)
          (column_of median st)
          (combine (figures_of_index inp (fst m0)) (figures_of_index inp (fst m1))) /\
  Forall2 (fun ci o => forall set, o = Some set ->
             exists c0 c1, count_for ci m0 = Some c0 /\ count_for ci m1 = Some c1 /\
                           median set = (c0 + c1) / 2)
          (in_counters inp) (st_counts st).

Theorem provenance dbg sv inp st :
  admissibleb (in_durs inp) sv = true -> in_size inp <> 0 -> in_durs inp <> [] ->
  no_overflow inp -> counts_u64 inp ->
  compute_stats true dbg sv inp = Ok st ->
  (exists f, snd f = list_min (in_durs inp) /\ column_of_sample inp st fastest fastest f) /\
  (exists l, snd l = list_max (in_durs inp) /\ column_of_sample inp st slowest slowest l) /\
  (if Nat.even (length (in_durs inp))
   then exists m0 m1, snd m0 = mid_lo (in_durs inp) /\ snd m1 = mid_hi (in_durs inp) /\
                      median_of_two inp st m0 m1
   else exists m, snd m = mid_hi (in_durs inp) /\ column_of_sample inp st median median m).
Proof.
  intros Ha Hs Hd Hov Hu H.
  (* the time figures, in terms of the least, greatest and middle durations *)
  pose proof (order_stats _ _ _ _ Ha Hov H) as (Tf & Tl & Tm & _).
  unfold spec_fastest in Tf. unfold spec_slowest in Tl. rewrite (spec_median_nonempty _ _ Hd) in Tm.
  apply compute_stats_inv in H. destruct H as (tc & td & mids & mn & mx & md & _ & _ & Hm & _ & _ & _ & ->).
  pose proof (middle_view _ _ _ Ha Hm) as V.
  pose proof (fun x => admissible_in _ _ x Ha) as Hin.
  destruct (ends_of_nonempty sv) as (x0 & xl & Hhd & Hlast & I0 & Il); [intros ->; apply Hd, admissible_nil, Ha|].
  cbn [assemble st_time fastest slowest median] in Tf, Tl, Tm. cbn [assemble st_time st_counts fastest slowest median].
  split; [|split].
  - exists x0. rewrite <- (admissible_hd _ _ _ Ha Hhd) in Tf |- *. split; [reflexivity|].
    split; [apply Hin, I0|]. split; [exact Tf|]. split.
    + rewrite column_of_fastest. apply end_column; assumption.
    + apply Forall2_map_self_r, Forall_forall. intros ci _ set Hk.
      apply kind_set_inv in Hk. destruct Hk as (_ & _ & _ & Hf & _). rewrite Hhd in Hf. exact Hf.
  - exists xl. rewrite <- (admissible_last _ _ _ Ha Hlast) in Tl |- *. split; [reflexivity|].
    split; [apply Hin, Il|]. split; [exact Tl|]. split.
    + rewrite column_of_slowest. apply end_column; assumption.
    + apply Forall2_map_self_r, Forall_forall. intros ci _ set Hk.
      apply kind_set_inv in Hk. destruct Hk as (_ & _ & _ & _ & Hl & _). rewrite Hlast in Hl. exact Hl.
  - destruct Hm as [->|x _ Hx|x y _ Hev' Hx Hy]; [congruence| |].
    + destruct V as (_ & Hev & Eh). rewrite Hev, Eh in Tm |- *. exists x. split; [reflexivity|].
      split; [apply Hin, (nth_error_In _ _ Hx)|]. split; [exact Tm|]. split.
      * apply median_column_one, Hs.
      * apply Forall2_map_self_r. eapply Forall_impl; [|exact Hu]. cbn beta. intros ci Hci set Hk.
        apply kind_set_inv in Hk. destruct Hk as (sum & Hsum & -> & _).
        cbn [median_counter_sum length] in *. change (N.max (N.of_nat 1) 1) with 1.
        destruct (count_for ci x) as [c|] eqn:Ec; [|discriminate]. injection Hsum as <-.
        rewrite (u64_mean_one c (count_for_u64 _ _ _ Hci Ec)). reflexivity.
    + destruct V as (_ & Hev & El & Eh). rewrite Hev, El, Eh in Tm |- *. exists x, y.
      split; [reflexivity|]. split; [reflexivity|].
      split; [apply Hin, (nth_error_In _ _ Hx)|]. split; [apply Hin, (nth_error_In _ _ Hy)|].
      split.
      { apply (distinct_positions _ _ _ _ _ _ Ha) with (2 := Hx) (3 := Hy).
        destruct (even_half _ Hev') as (k & -> & -> & _); [intros E; apply length_zero_iff_nil in E; subst; discriminate|].
        apply Nat.neq_succ_diag_r. }
      split; [exact Tm|]. split.
      * apply median_column_two, Hs.
      * apply Forall2_map_self_r. eapply Forall_impl; [|exact Hu]. cbn beta. intros ci Hci set Hk.
        apply kind_set_inv in Hk. destruct Hk as (sum & Hsum & -> & _).
        cbn [median_counter_sum length] in *. change (N.max (N.of_nat 2) 1) with 2.
        destruct (count_for ci x) as [c0|] eqn:Ec0; [|discriminate].
        destruct (count_for ci y) as [c1|] eqn:Ec1; [|discriminate]. injection Hsum as <-.
        exists c0, c1. split; [reflexivity|]. split; [reflexivity|].
        apply u64_mean_two; eapply count_for_u64; eassumption.
Qed.

Definition totals_of (inp : inputs) : list N :=
  total_of ai_max_count (in_allocs inp) :: total_of ai_max_size (in_allocs inp) ::
  flat_map (fun op => [total_of (fun i => t_count (ai_tally op i)) (in_allocs inp);
                       total_of (fun i => t_size (ai_tally op i)) (in_allocs inp)]) all_ops.

Theorem means dbg sv inp st :
  no_overflow inp -> counts_u64 inp -> compute_stats true dbg sv inp = Ok st ->
  Forall2 (fun x t => xq_eqb x (Fin t (N.max (in_size inp * N.of_nat (length (in_durs inp))) 1)) = true)
          (column_of mean st) (totals_of inp) /\
  Forall2 (fun ci o => forall set, o = Some set ->
             ci_counts ci <> [] /\
             mean set = sum_list (ci_counts ci) / N.of_nat (length (ci_counts ci)))
          (in_counters inp) (st_counts st).
Proof.
  intros [_ Hov] Hu H. apply compute_stats_inv in H.
  destruct H as (tc & td & mids & mn & mx & md & E1 & _ & _ & _ & _ & _ & ->).
  rewrite mul64_exact in E1 by exact Hov. injection E1 as <-. split.
  - rewrite column_of_mean. apply Forall2_map_self_l. intros t. rewrite per_size_val by lia. apply xq_eqb_refl.
  - cbn [assemble st_counts]. apply Forall2_map_self_r. eapply Forall_impl; [|exact Hu]. cbn beta.
    intros ci Hci set Hk. apply kind_set_inv in Hk. destruct Hk as (_ & _ & _ & Hf & _ & ->).
    split; [exact (first_count_nonempty _ _ _ Hf)|apply N.mod_small, sum_div_len_u64, Hci].
Qed.

Lemma median_counter_sum_some ci mids : forall acc,
  (forall x, In x mids -> exists c, count_for ci x = Some c) ->
  exists sum, median_counter_sum ci mids acc = Some sum.
Proof.
  induction mids as [|x r IH]; intros acc H; cbn [median_counter_sum]; [eexists; reflexivity|].
  destruct (H x (or_introl eq_refl)) as [c ->]. apply IH. intros y Hy. apply H. right. exact Hy.
Qed.

Lemma kind_set_some ci sv mids :
  sv <> [] -> middle_of sv mids -> (forall x, In x sv -> exists c, count_for ci x = Some c) ->
  exists set, kind_set ci sv mids = Some set.
Proof.
  intros Hne Hm Hall. unfold kind_set.
  destruct (median_counter_sum_some ci mids 0) as [sum ->].
  { intros x Hx. apply Hall, (middle_subset _ _ _ Hm Hx). }
  destruct (ends_of_nonempty sv Hne) as (x0 & xl & -> & -> & I0 & Il).
  destruct (Hall x0 I0) as [f Hf]. destruct (Hall xl Il) as [l Hl]. cbn [opt_bind]. rewrite Hf, Hl.
  eexists; reflexivity.
Qed.

Lemma kind_set_none ci sv x r : count_for ci x = None -> kind_set ci sv (x :: r) = None.
Proof. intros H. unfold kind_set. cbn [median_counter_sum]. rewrite H. reflexivity. Qed.

Definition is_some {A} (o : option A) : bool := match o with Some _ => true | None => false end.

Lemma kind_set_presence durs ci sv mids :
  admissibleb durs sv = true -> middle_of sv mids ->
  forall b, expect_counter (length durs) ci = Some b -> b = is_some (kind_set ci sv mids).
Proof.
  intros Ha Hm b He. destruct (admissible_vals _ _ Ha) as (_ & _ & L).
  unfold expect_counter in He. destruct (length durs =? 0)%nat eqn:E0.
  - injection He as <-. apply Nat.eqb_eq in E0. rewrite E0 in L. destruct sv; [|discriminate].
    unfold kind_set. destruct (median_counter_sum ci mids 0); reflexivity.
  - apply Nat.eqb_neq in E0. assert (sv <> []) as Hne by (intros ->; apply E0; symmetry; exact L).
    assert (exists x r, mids = x :: r /\ In x sv) as (xm & rm & -> & Hxm).
    { destruct Hm as [->|x _ Hx|x y _ _ Hx _]; [congruence| |]; eexists; eexists; (split; [reflexivity|]);
        eapply nth_error_In; exact Hx. }
    (* every sample has a count, or none has *)
    assert ((forall x, In x sv -> exists c, count_for ci x = Some c) /\ b = true \/
            count_for ci xm = None /\ b = false) as [[Hall ->]|[Hnone ->]].
    { unfold count_for. destruct (ci_input ci).
      - destruct (length durs <=? length (ci_counts ci))%nat eqn:El.
        + injection He as <-. left. split; [|reflexivity]. apply Nat.leb_le in El. intros x Hx.
          pose proof (admissible_index_lt _ _ _ Ha Hx) as Hlt.
          destruct (nth_error (ci_counts ci) (N.to_nat (fst x))) as [c|] eqn:En; [eexists; reflexivity|].
          apply nth_error_None in En. lia.
        + destruct (ci_counts ci) as [|c0 cr]; [|discriminate]. injection He as <-. right.
          split; [destruct (N.to_nat (fst xm))|]; reflexivity.
      - injection He as <-. destruct (ci_counts ci) as [|c0 cr]; [right; split; reflexivity|].
        left. split; [|reflexivity]. intros x _. eexists; reflexivity. }
    + destruct (kind_set_some ci sv _ Hne Hm Hall) as [set ->]. reflexivity.
    + rewrite (kind_set_none _ _ _ _ Hnone). reflexivity.
Qed.

Theorem presence dbg sv inp st :
  admissibleb (in_durs inp) sv = true -> compute_stats true dbg sv inp = Ok st ->
  Forall2 (fun ci o => forall b, expect_counter (length (in_durs inp)) ci = Some b -> b = is_some o)
          (in_counters inp) (st_counts st).
Proof.
  intros Ha H. apply compute_stats_inv in H.
  destruct H as (tc & td & mids & mn & mx & md & _ & _ & Hm & _ & _ & _ & ->).
  cbn [assemble st_counts]. apply Forall2_map_self_r, Forall_forall. intros ci _.
  apply (kind_set_presence _ _ _ _ Ha Hm).
Qed.

Lemma presence_ok_spec inp st :
  presence_ok inp st = true <->
  Forall2 (fun ci o => forall b, expect_counter (length (in_durs inp)) ci = Some b -> b = is_some o)
          (in_counters inp) (st_counts st).
Proof.
  unfold presence_ok. apply forallb2_iff. intros ci o. fold (is_some o).
  destruct (expect_counter _ ci) as [b|]; [|split; [discriminate|reflexivity]].
  rewrite Bool.eqb_true_iff. split; [intros E ? [= <-]; exact E|intros H; exact (H b eq_refl)].
Qed.

Lemma means_ok_spec inp st :
  means_ok inp st = true <->
  Forall2 (fun x t => xq_close x (Fin t (N.max (in_size inp * N.of_nat (length (in_durs inp))) 1)) = true)
          (column_of mean st) (totals_of inp) /\
  Forall2 (fun ci o => forall set, o = Some set ->
             ci_counts ci <> [] /\
             mean set = sum_list (ci_counts ci) / N.of_nat (length (ci_counts ci)))
          (in_counters inp) (st_counts st).
Proof.
  unfold means_ok, totals_of. cbv zeta. rewrite andb_true_iff, forallb2_spec. apply and_iff_compat_l, forallb2_iff.
  intros ci [set|]; [|split; [discriminate|reflexivity]].
  rewrite andb_true_iff, negb_true_iff, Nat.eqb_neq, N.eqb_eq, length_zero_iff_nil.
  split; [intros H ? [= <-]; exact H|intros H; exact (H set eq_refl)].
Qed.

Lemma eqb_close x c d :
  xq_eqb x (Fin c d) = true -> xq_is_fin x = true -> d <> 0 -> xq_close x (Fin c d) = true.
Proof.
  destruct x as [a b| |]; cbn [xq_eqb xq_is_fin]; try discriminate.
  intros E Hb Hd. apply N.eqb_eq in E. apply negb_true_iff, N.eqb_neq in Hb.
  apply xq_close_spec. rewrite E, N.sub_diag. repeat split; auto; intros; apply N.le_0_l.
Qed.

Lemma close_column {B} (num : B -> N) (col : list xq) (figs : list B) d :
  d <> 0 -> Forall (fun x => xq_is_fin x = true) col ->
  Forall2 (fun x v => xq_eqb x (Fin (num v) d) = true) col figs ->
  Forall2 (fun x v => xq_close x (Fin (num v) d) = true) col figs.
Proof.
  intros Hd Hf F2. induction F2; constructor; inversion Hf; subst; [apply eqb_close|]; auto.
Qed.

Lemma column_from_one_ok selq seln inp st d smp :
  in_size inp <> 0 -> Forall (fun x => xq_is_fin x = true) (column_of selq st) ->
  snd smp = d -> column_of_sample inp st selq seln smp ->
  column_from_one selq seln inp st d = true.
Proof.
  intros Hs Hf Hd (Hin & _ & Hcol & Hcnt). apply column_from_one_spec. exists smp.
  split; [exact Hin|]. split; [exact Hd|]. split; [apply (close_column (fun v => v)); assumption|].
  eapply Forall2_impl; [|exact Hcnt]. cbn beta. intros ci o Hc set E. eexists. split; [apply Hc, E|reflexivity].
Qed.

Lemma in_domain_props inp :
  in_domain inp = true -> size_ok inp /\ no_overflow inp /\ counts_u64 inp.
Proof.
  unfold in_domain. rewrite !andb_true_iff. intros (((((H1 & H2) & H3) & _) & _) & H6).
  split; [|split; [split|]].
  - apply orb_true_iff in H1. destruct H1 as [H1|H1].
    + left. apply negb_true_iff, N.eqb_neq in H1. exact H1.
    + right. apply Nat.eqb_eq in H1. destruct (in_durs inp); [reflexivity|discriminate].
  - apply N.ltb_lt. exact H2.
  - apply N.ltb_lt. exact H3.
  - revert H6. apply forallb_Forall_impl. intros ci. apply forallb_Forall_impl. intros c. apply N.ltb_lt.
Qed.

Lemma zero_entries inp mids tc mn mx md me counts :
  Forall (fun x => xq_eqb x (Fin 0 1) = true)
    (column_of fastest (assemble true inp [] mids tc mn mx md me counts) ++
     column_of slowest (assemble true inp [] mids tc mn mx md me counts) ++
     column_of median (assemble true inp [] [] tc mn mx md me counts)).
Proof.
  assert (Forall (fun v => v = 0) (figures_of_info None)) as Z by (repeat constructor).
  assert (Forall (fun p => p = (0, 0)) (combine (figures_of_info None) (figures_of_info None))) as Z2
    by (repeat constructor).
  rewrite column_of_fastest, column_of_slowest, column_of_median.
  cbn [hd_error last_error nth_error length sample_alloc_info]. change (N.max (N.of_nat 0) 1) with 1.
  rewrite !Forall_app, !Forall_map.
  repeat split; (eapply Forall_impl; [|first [exact Z|exact Z2]]); cbn beta; intros ? ->; cbn [fst snd];
    rewrite ?per_size_val, ?med_entry_val by lia; reflexivity.
Qed.

Theorem model_sb dbg sv inp :
  admissibleb (in_durs inp) sv = true -> in_domain inp = true ->
  stats_sb inp (compute_stats true dbg sv inp) = true.
Proof.
  intros Ha Hdom. apply stats_sb_spec. intros _.
  destruct (in_domain_props _ Hdom) as (Hs & Hov & Hu).
  destruct (total_no_nan dbg sv inp Ha Hs (fun _ => Hov)) as (st & H & Hfin & _).
  exists st. split; [exact H|].
  pose proof (order_stats _ _ _ _ Ha Hov H) as (T1 & T2 & T3 & T4 & T5 & T6).
  pose proof (bounds _ _ _ _ Ha Hs Hov H) as ((B1 & B2) & (B3 & B4)).
  split; [apply time_ok_spec; repeat split; assumption|]. split; [exact Hfin|].
  apply all_fin_columns in Hfin. destruct Hfin as (Ff & Fs & Fm & Fmean).
  split; [|split].
  - apply presence_ok_spec, (presence _ _ _ _ Ha H).
  - apply means_ok_spec. destruct (means _ _ _ _ Hov Hu H) as (M1 & M2). split; [|exact M2].
    apply (close_column (fun v => v)); [clear; lia|exact Fmean|exact M1].
  - apply provenance_ok_spec. destruct (in_durs inp) as [|d0 dr] eqn:Ed.
    + apply compute_stats_inv in H. destruct H as (tc & td & mids & mn & mx & md & _ & _ & Hm & _ & _ & _ & ->).
      destruct (admissible_vals _ _ Ha) as (_ & _ & L). destruct sv; [|discriminate].
      destruct Hm as [_|x Hev _|x y Hne _ _ _]; [apply zero_entries|discriminate Hev|contradiction Hne; reflexivity].
    + rewrite <- Ed in *. assert (in_durs inp <> []) as Hd by (rewrite Ed; discriminate).
      assert (in_size inp <> 0) as Hsz by (destruct Hs; [assumption|congruence]).
      destruct (provenance dbg sv inp st Ha Hsz Hd Hov Hu H) as ((f & Hf1 & Hf2) & (l & Hl1 & Hl2) & Hmed).
      split; [exact (column_from_one_ok _ _ _ _ _ f Hsz Ff Hf1 Hf2)|].
      split; [exact (column_from_one_ok _ _ _ _ _ l Hsz Fs Hl1 Hl2)|].
      destruct (Nat.even (length (in_durs inp))).
      * destruct Hmed as (m0 & m1 & Hm0 & Hm1 & (I0 & I1 & Hne & _ & Hcol & Hcnt)).
        apply median_from_two_spec. exists m0, m1. repeat (split; [assumption|]). split; [|exact Hcnt].
        apply Forall2_map_right, (close_column (fun p => fst p + snd p)); [clear - Hsz; lia|exact Fm|exact Hcol].
      * destruct Hmed as (m & Hm1 & Hm2). exact (column_from_one_ok _ _ _ _ _ m Hsz Fm Hm1 Hm2).
Qed.

Lemma counter_total_val l : forall acc,
  acc + sum_list l < 2 ^ 128 -> counter_total acc l = acc + sum_list l.
Proof.
  induction l as [|c r IH]; intros acc H; cbn [counter_total sum_list] in *; [symmetry; apply N.add_0_r|].
  rewrite N.add_assoc in *. rewrite sat_add_small, IH; [reflexivity|exact H|].
  apply N.le_lt_trans with (2 := H), N.le_add_r.
Qed.

(** Per-input counter per iteration = sum over the sample's inputs / sample
    size; with one u64 count per iteration the cast to u64 loses nothing. *)
Theorem counter_per_iter input_counts ssize :
  ssize <> 0 -> sum_list input_counts < 2 ^ 128 ->
  per_iter_count input_counts ssize = Ok ((sum_list input_counts / ssize) mod 2 ^ 64) /\
  (N.of_nat (length input_counts) = ssize -> Forall (fun c => c < 2 ^ 64) input_counts ->
   per_iter_count input_counts ssize = Ok (sum_list input_counts / ssize)).
Proof.
  intros Hs Hsum. unfold per_iter_count. rewrite counter_total_val, N.add_0_l by (rewrite N.add_0_l; exact Hsum).
  rewrite checked_div_ok by exact Hs. cbn [bind]. split; [reflexivity|].
  intros Hlen F. f_equal. apply N.mod_small. rewrite <- Hlen. apply sum_div_len_u64. exact F.
Qed.

Lemma per_iter_model_sb input_counts ssize :
  per_iter_sb input_counts ssize (per_iter_count input_counts ssize) = true.
Proof.
  unfold per_iter_sb. destruct (ssize =? 0) eqn:E0; [reflexivity|]. cbn [orb].
  destruct (sum_list input_counts <? 2 ^ 128) eqn:E1; [|reflexivity]. cbn [negb].
  apply N.eqb_neq in E0. apply N.ltb_lt in E1.
  destruct (counter_per_iter input_counts ssize E0 E1) as [-> _]. apply N.eqb_refl.
Qed.

Example counter_per_iter_satisfiable :
  per_iter_count [10; 20; 31] 3 = Ok 20 /\
  per_iter_count [18446744073709551615; 18446744073709551615] 2 = Ok 18446744073709551615.
Proof. split; reflexivity. Qed.
