(** C20: the painted tree parses back, unambiguously, to the skeleton of the
    picture.  Part 1: lexing (lines, units, glyphs, names, cells). *)
From DivanV Require Import Base.Res Model.Painter Model.Parse Proofs.Painter Proofs.ListFacts.

Definition plain_char (c : N) : Prop :=
  c <> nl /\ c <> c_bar /\ c <> c_branch /\ c <> c_corner /\ c <> c_dash.

Definition plain (s : str) : Prop := forall c, In c s -> plain_char c.

(** Table-part characters: no newline, no glyph (a bar is allowed: it is the
    separator). *)
Definition tame_char (c : N) : Prop := c <> nl /\ c <> c_branch /\ c <> c_corner.
Definition tame (s : str) : Prop := forall c, In c s -> tame_char c.

Lemma plain_tame : forall s, plain s -> tame s.
Proof. intros s H c Hc. destruct (H c Hc) as (a & b & d & e & f). repeat split; auto. Qed.

Lemma tame_nil : tame [].
Proof. intros c []. Qed.

Lemma tame_cons : forall c s, tame_char c -> tame s -> tame (c :: s).
Proof. intros c s Hc Hs x [<-|Hx]; auto. Qed.

Lemma tame_app : forall a b, tame a -> tame b -> tame (a ++ b).
Proof. intros a b Ha Hb c Hc. apply in_app_or in Hc. destruct Hc; auto. Qed.

Lemma tame_sp : tame_char sp.
Proof. repeat split; discriminate. Qed.

Lemma tame_bar : tame_char c_bar.
Proof. repeat split; discriminate. Qed.

Lemma tame_spaces : forall k, tame (spaces k).
Proof. induction k; [apply tame_nil | apply tame_cons; [apply tame_sp | exact IHk]]. Qed.

Lemma tame_units : forall fl, tame (units_str fl).
Proof.
  induction fl as [|f r IH]; [apply tame_nil|].
  destruct f; repeat apply tame_cons; auto using tame_sp, tame_bar.
Qed.

Lemma split_on_nodelim : forall d a, ~ In d a -> split_on d a = [a].
Proof.
  induction a as [|c r IH]; intros H; [reflexivity|]. cbn [split_on].
  destruct (N.eqb_spec c d) as [->|_]; [exfalso; apply H; left; reflexivity|].
  rewrite IH; [reflexivity | intros Hin; apply H; right; exact Hin].
Qed.

Lemma split_on_delim : forall d a b, ~ In d a -> split_on d (a ++ d :: b) = a :: split_on d b.
Proof.
  induction a as [|c r IH]; intros b H.
  - cbn [app split_on]. rewrite N.eqb_refl. reflexivity.
  - cbn [app split_on].
    destruct (N.eqb_spec c d) as [->|_]; [exfalso; apply H; left; reflexivity|].
    rewrite IH; [reflexivity | intros Hin; apply H; right; exact Hin].
Qed.

Definition no_nl (s : str) : Prop := ~ In nl s.

Lemma tame_no_nl : forall s, tame s -> no_nl s.
Proof. intros s H Hin. destruct (H nl Hin) as (E & _). congruence. Qed.

Lemma lines_unlines : forall ls, Forall no_nl ls -> lines (unlines ls) = Some ls.
Proof.
  intros ls H. unfold lines.
  assert (E : split_on nl (unlines ls) = ls ++ [[]]).
  { induction H as [|l r Hl _ IH]; [reflexivity|].
    cbn [unlines flat_map]. fold (unlines r). rewrite <- app_assoc. cbn [app].
    rewrite split_on_delim, IH by exact Hl. reflexivity. }
  rewrite E, rev_app_distr. cbn. rewrite rev_involutive. reflexivity.
Qed.

Lemma spaces_snoc : forall j x, spaces j ++ sp :: x = spaces (S j) ++ x.
Proof.
  induction j; intros x; [reflexivity|].
  change (spaces (S j) ++ sp :: x) with (sp :: (spaces j ++ sp :: x)). rewrite IHj. reflexivity.
Qed.

Lemma rev_spaces : forall k, rev (spaces k) = spaces k.
Proof. exact (rev_repeat sp). Qed.

Lemma drop_sp_spaces : forall k x, drop_sp (spaces k ++ x) = drop_sp x.
Proof. induction k; intros; [reflexivity|]. cbn. exact (IHk x). Qed.

Lemma drop_sp_app_spaces : forall x j,
  drop_sp (x ++ spaces j) = match drop_sp x with [] => [] | y => y ++ spaces j end.
Proof.
  induction x as [|c r IH]; intros j.
  - cbn [app drop_sp]. rewrite <- (app_nil_r (spaces j)), drop_sp_spaces. reflexivity.
  - cbn [app drop_sp]. destruct (N.eqb c sp); [apply IH | reflexivity].
Qed.

Lemma trim_pad : forall i c j, trim (spaces i ++ c ++ spaces j) = trim c.
Proof.
  intros. unfold trim. rewrite drop_sp_spaces, drop_sp_app_spaces.
  destruct (drop_sp c) as [|y0 y] eqn:E; [reflexivity|].
  rewrite rev_app_distr, rev_spaces, drop_sp_spaces. reflexivity.
Qed.

Lemma trim_pad_l : forall i c, trim (spaces i ++ c) = trim c.
Proof. intros. rewrite <- (trim_pad i c 0). cbn [spaces repeat]. rewrite app_nil_r. reflexivity. Qed.

Lemma trim_spaces : forall k, trim (spaces k) = [].
Proof. intros. rewrite <- (app_nil_r (spaces k)). apply (trim_pad_l k []). Qed.

Definition nobar (c : str) : Prop := ~ In c_bar c.

Lemma nobar_spaces : forall k, nobar (spaces k).
Proof. intros k H. apply repeat_spec in H. discriminate. Qed.

Lemma split_cell : forall k v j t,
  nobar v -> split_on c_bar (spaces k ++ v ++ spaces j ++ c_bar :: t)
             = (spaces k ++ v ++ spaces j) :: split_on c_bar t.
Proof.
  intros k v j t Hv. rewrite 2 app_assoc, <- (app_assoc (spaces k)).
  apply split_on_delim. apply notin_app; [apply nobar_spaces|]. apply notin_app; [exact Hv | apply nobar_spaces].
Qed.

(** [k] leading spaces: the padding in front of the table part and, in the
    induction, the space after a separator. *)
Lemma row_cells : forall row s, row_shape row s -> Forall nobar row ->
  forall k, map trim (split_on c_bar (spaces k ++ s)) = map trim row.
Proof.
  induction 1 as [v | v j | v j rest t Hne Ht IH]; intros Hnb k;
    inversion Hnb as [|? ? Hv Hrest]; subst.
  - rewrite split_on_nodelim by (apply notin_app; [apply nobar_spaces | exact Hv]).
    cbn [map]. rewrite trim_pad_l. reflexivity.
  - rewrite spaces_snoc, split_cell by exact Hv. cbn [split_on map]. rewrite trim_pad. reflexivity.
  - cbn [app]. rewrite spaces_snoc, split_cell by exact Hv. cbn [map]. rewrite trim_pad.
    f_equal. exact (IH Hrest 1).
Qed.

Lemma row_shape_tame : forall row s, row_shape row s -> Forall tame row -> tame s.
Proof.
  induction 1 as [v | v j | v j rest t Hne Ht IH]; intros Hf; inversion Hf as [|? ? Hv Hrest]; subst.
  - exact Hv.
  - apply tame_app; [exact Hv|]. apply tame_app; [apply tame_spaces|].
    apply tame_cons; [apply tame_sp|]. apply tame_cons; [apply tame_bar | apply tame_nil].
  - apply tame_app; [exact Hv|]. apply tame_app; [apply tame_spaces|].
    apply tame_cons; [apply tame_sp|]. apply tame_cons; [apply tame_bar|].
    apply tame_cons; [apply tame_sp | exact (IH Hrest)].
Qed.

(** [parse_cells] reads a table part that trims to nothing as no cells, so a
    row must show something. *)
Definition row_visible (row : list str) : Prop :=
  2 <= length row \/ exists c, row = [c] /\ trim c <> [].

Lemma in_trim_nonempty : forall s c, In c s -> c <> sp -> trim s <> [].
Proof.
  intros s c Hin Hc. unfold trim.
  assert (H1 : forall x, In c x -> In c (drop_sp x)).
  { induction x as [|a r IH]; intros H; [destruct H|]. cbn [drop_sp].
    destruct (N.eqb_spec a sp) as [->|_]; [|exact H].
    destruct H as [H|H]; [congruence | apply IH; exact H]. }
  intros E. apply (f_equal (@rev N)) in E. rewrite rev_involutive in E. cbn in E.
  apply H1, in_rev, H1 in Hin. rewrite E in Hin. destruct Hin.
Qed.

Lemma row_trim_visible : forall row s k, row_shape row s -> row_visible row -> trim (spaces k ++ s) <> [].
Proof.
  intros row s k H [Hl | (c & -> & Hc)].
  - apply (in_trim_nonempty _ c_bar); [|discriminate]. apply in_or_app. right.
    destruct H; cbn in Hl; [lia | |];
      apply in_or_app; right; apply in_or_app; right; cbn; auto.
  - inversion H; subst; [|congruence]. rewrite trim_pad_l. exact Hc.
Qed.

Fixpoint name_tail_ok (s : str) : bool :=
  match s with
  | [] => true
  | a :: r =>
    match r with
    | [] => negb (N.eqb a sp)
    | b :: _ => negb (N.eqb a sp && N.eqb b sp) && name_tail_ok r
    end
  end.

Lemma take_name_spec : forall n t,
  name_tail_ok n = true -> (t = [] \/ exists t', t = sp :: sp :: t') ->
  take_name (n ++ t) = (n, t).
Proof.
  induction n as [|a r IH]; intros t Hn Ht.
  - destruct Ht as [->|(t' & ->)]; reflexivity.
  - destruct r as [|b r'].
    + cbn in Hn. cbn [app]. destruct Ht as [->|(t' & ->)]; [reflexivity|].
      cbn [take_name]. destruct (N.eqb a sp); [discriminate|]. reflexivity.
    + cbn [name_tail_ok] in Hn. apply andb_prop in Hn. destruct Hn as [H1 H2].
      change ((a :: b :: r') ++ t) with (a :: (b :: r') ++ t). cbn [take_name]. cbn [app].
      destruct (N.eqb a sp && N.eqb b sp); [discriminate|].
      change (b :: r' ++ t) with ((b :: r') ++ t). rewrite (IH t H2 Ht). reflexivity.
Qed.

Lemma strip_units_app : forall fl t,
  strip_units (units_str fl ++ t) = (fl ++ fst (strip_units t), snd (strip_units t)).
Proof.
  induction fl as [|f r IH]; intros t.
  - cbn [units_str app]. destruct (strip_units t); reflexivity.
  - cbn [units_str]. rewrite <- app_assoc.
    destruct f; cbn [u_bar u_blank app strip_units];
      change (N.eqb sp sp) with true; cbn [andb];
      [change (N.eqb c_bar c_bar) with true | change (N.eqb sp c_bar) with false; cbn match];
      rewrite IH; reflexivity.
Qed.

Lemma classify_node : forall fl l payload,
  classify (units_str fl ++ branch_glyph l ++ payload) = TNode fl l payload.
Proof.
  intros. unfold classify. rewrite strip_units_app.
  replace (strip_units (branch_glyph l ++ payload)) with (@nil bool, branch_glyph l ++ payload)
    by (destruct l; reflexivity).
  cbn [fst snd]. rewrite app_nil_r. destruct l; reflexivity.
Qed.

Lemma strip_units_suffix : forall n s, length s <= n -> exists pre, s = pre ++ snd (strip_units s).
Proof.
  induction n as [|n IH]; intros s Hl.
  - destruct s; [exists []; reflexivity | cbn in Hl; lia].
  - destruct s as [|a [|b [|c r]]]; try (exists []; reflexivity).
    cbn [strip_units].
    destruct (N.eqb b sp && N.eqb c sp); [|exists []; reflexivity].
    destruct (IH r) as (pre & E); [cbn in Hl; lia|].
    destruct (strip_units r) as [u t]. cbn [snd] in E.
    assert (Hr : exists pre', a :: b :: c :: r = pre' ++ t)
      by (exists (a :: b :: c :: pre); cbn [app]; congruence).
    destruct (N.eqb a c_bar); [exact Hr|]. destruct (N.eqb a sp); [exact Hr | exists []; reflexivity].
Qed.

(** [other] in [classify]: the token of a line without glyph. *)
Definition other_token (s : str) : token :=
  match s with
  | [] => TBlank
  | c :: _ => if N.eqb c sp || N.eqb c c_bar then TRow s else TTop s
  end.

Lemma classify_tame : forall s, tame s -> classify s = other_token s.
Proof.
  intros s Ht. unfold classify.
  destruct (strip_units_suffix (length s) s (le_n _)) as (pre & E).
  destruct (strip_units s) as [us rest]. cbn [snd] in E. fold (other_token s).
  destruct rest as [|a [|b [|c payload]]]; try reflexivity.
  destruct (Ht a) as (_ & H1 & H2); [rewrite E; apply in_or_app; right; left; reflexivity|].
  destruct (N.eqb b c_dash && N.eqb c sp); [|reflexivity].
  destruct (N.eqb_spec a c_branch); [congruence|]. destruct (N.eqb_spec a c_corner); [congruence|]. reflexivity.
Qed.

Lemma strip_prefix_app : forall p t, strip_prefix p (p ++ t) = Some t.
Proof. induction p; intros; cbn; [reflexivity|]. rewrite N.eqb_refl. apply IHp. Qed.
