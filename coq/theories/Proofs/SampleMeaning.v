(** What the monitor [sb_sample] of Model/Sample.v means, for ANY event list it
    accepts (in particular the logs of the implementation on which the violation
    search evaluates it). *)

From DivanV Require Import Base.Res Model.Sample Proofs.Sample.
Local Open Scope nat_scope.
Local Arguments Nat.ltb _ _ : simpl never.

Fixpoint count {A} (p : A -> bool) (l : list A) : nat :=
  match l with [] => 0 | x :: r => (if p x then 1 else 0) + count p r end.

Definition is_call_of (i : nat) (e : oev nat) : bool :=
  match e with OCall j _ => Nat.eqb j i | _ => false end.
Definition is_gen_of (i : nat) (e : oev nat) : bool :=
  match e with OGen j => Nat.eqb j i | _ => false end.
Definition is_dropout_of (i : nat) (e : oev nat) : bool :=
  match e with ODropOut j => Nat.eqb j i | _ => false end.
Definition is_dropin_of (i : nat) (e : oev nat) : bool :=
  match e with ODropIn j | OUDropIn j => Nat.eqb j i | _ => false end.

Definition is_fw_dropin (e : oev nat) : bool := match e with ODropIn _ => true | _ => false end.
Definition is_udropin (e : oev nat) : bool := match e with OUDropIn _ => true | _ => false end.
Definition is_fw_dropin_of (i : nat) (e : oev nat) : bool :=
  match e with ODropIn j => Nat.eqb j i | _ => false end.
Definition is_udropin_of (i : nat) (e : oev nat) : bool :=
  match e with OUDropIn j => Nat.eqb j i | _ => false end.

Definition ckind_eqb (a b : ckind) : bool :=
  match a, b with
  | Bytes, Bytes | Chars, Chars | Cycles, Cycles | Items, Items => true
  | _, _ => false
  end.

Definition is_count_of (k : ckind) (i : nat) (e : oev nat) : bool :=
  match e with OCount k' j => ckind_eqb k' k && Nat.eqb j i | _ => false end.

Lemma count_le {A} (P Q : A -> bool) l :
  (forall x, P x = true -> Q x = true) -> count P l <= count Q l.
Proof.
  intros H. induction l as [|x l IH]; cbn; [lia|].
  destruct (P x) eqn:Px; [rewrite (H x Px); lia|destruct (Q x); lia].
Qed.

Lemma count_app {A} (P : A -> bool) l1 l2 : count P (l1 ++ l2) = count P l1 + count P l2.
Proof. induction l1 as [|x l1 IH]; cbn; [reflexivity|]. rewrite IH. apply Nat.add_assoc. Qed.

Lemma count_ge_split {A} (P : A -> bool) l :
  1 <= count P l -> exists l1 e l2, l = l1 ++ e :: l2 /\ P e = true.
Proof.
  induction l as [|x l IH]; cbn; [lia|]. destruct (P x) eqn:Px.
  - intros _. exists [], x, l. auto.
  - intros H. destruct (IH H) as (l1 & e & l2 & -> & He). exists (x :: l1), e, l2. auto.
Qed.

Lemma count_dropin_split i l :
  count (is_dropin_of i) l = count (is_fw_dropin_of i) l + count (is_udropin_of i) l.
Proof.
  induction l as [|e l IH]; cbn; [reflexivity|]. rewrite IH.
  destruct e; cbn; try lia; destruct (Nat.eqb id i); lia.
Qed.

(** What an accepted event about value [i] does to that value; phase and call
    order are left aside, they play no part in the counting. *)
Inductive vstep (m : mcfg) (i : nat) : vst -> oev nat -> vst -> Prop :=
| VsGen c o : m_gen m = true -> i < m_n m ->
    vstep m i (mkV VNone c o) (OGen i) (mkV VLive c o)
| VsCount k c o : i < m_n m -> uses (m_cs m) k = true -> uses c k = false ->
    vstep m i (mkV VLive c o) (OCount k i) (mkV VLive (set_cnt c k) o)
| VsCall c : m_gen m = true -> i < m_n m -> cs_eqb c (m_cs m) = true ->
    vstep m i (mkV VLive c WNone) (OCall i i) (mkV (if m_ref m then VLive else VGiven) c WLive)
| VsCallUnit c : m_gen m = false -> i < m_n m ->
    vstep m i (mkV VNone c WNone) (OCall i i) (mkV VNone c WLive)
| VsUDropIn c o : m_idrop m = true ->
    vstep m i (mkV VGiven c o) (OUDropIn i) (mkV VDropped c o)
| VsDropOut a c : i < m_n m -> m_odrop m = true ->
    vstep m i (mkV a c WLive) (ODropOut i) (mkV a c WDropped)
| VsDropIn c o : m_ref m = true -> i < m_n m -> m_idrop m = true ->
    o = (if m_odrop m then WDropped else WLive) ->
    vstep m i (mkV VLive c o) (ODropIn i) (mkV VDropped c o).

Lemma ival_eqb_eq a b : ival_eqb a b = true -> a = b.
Proof. destruct a, b; easy. Qed.

Lemma oval_eqb_eq a b : oval_eqb a b = true -> a = b.
Proof. destruct a, b; easy. Qed.

(** [H : (if b then _ else inl _) = inr _]: the test [b] succeeded. *)
Ltac cond H C :=
  match type of H with (if ?b then _ else _) = _ => destruct b eqn:C; [|discriminate H] end.

Lemma mon_local_vstep m p nc i v e v' nc' :
  ev_index e = Some i -> mon_local m p nc i v e = inr (v', nc') -> vstep m i v e v'.
Proof.
  intros Hi H. destruct v as [a c o].
  destruct e; try discriminate Hi; injection Hi as ->; cbn in H.
  - cond H C. injection H as <- _. repeat rewrite Bool.andb_true_iff in C.
    destruct C as (((Hg & _) & Hn) & Ha). apply ival_eqb_eq in Ha as ->. apply Nat.ltb_lt in Hn.
    constructor; assumption.
  - cond H C. injection H as <- _. repeat rewrite Bool.andb_true_iff in C.
    destruct C as ((((_ & Hn) & Ha) & Hk) & Hc). apply ival_eqb_eq in Ha as ->. apply Nat.ltb_lt in Hn.
    apply Bool.negb_true_iff in Hc. constructor; assumption.
  - cond H C. injection H as <- _. repeat rewrite Bool.andb_true_iff in C.
    destruct C as (((((_ & Hn) & _) & Ho) & Hr) & Hw). apply oval_eqb_eq in Hw as ->.
    apply Nat.eqb_eq in Ho as ->. apply Nat.ltb_lt in Hn.
    unfold in_ready in Hr. cbn in Hr. destruct (m_gen m) eqn:Hg.
    + apply Bool.andb_true_iff in Hr as (Ha & Hc). apply ival_eqb_eq in Ha as ->. constructor; assumption.
    + apply ival_eqb_eq in Hr as ->. constructor; assumption.
  - cond H C. injection H as <- _. repeat rewrite Bool.andb_true_iff in C.
    destruct C as ((_ & Ha) & Hd). apply ival_eqb_eq in Ha as ->. constructor; assumption.
  - cond H C. injection H as <- _. repeat rewrite Bool.andb_true_iff in C.
    destruct C as (((_ & Hn) & Hd) & Ho). apply oval_eqb_eq in Ho as ->. apply Nat.ltb_lt in Hn.
    constructor; assumption.
  - destruct (m_ref m) eqn:Hr; [cbn in H|discriminate H].
    cond H C. injection H as <- _. repeat rewrite Bool.andb_true_iff in C.
    destruct C as ((((_ & Hn) & Hd) & Ha) & Ho). apply ival_eqb_eq in Ha as ->. apply Nat.ltb_lt in Hn.
    apply oval_eqb_eq in Ho. constructor; assumption.
  - discriminate H.
Qed.

Lemma step_other m s e s' i :
  mon_step m s e = inr s' -> ev_index e <> Some i -> vals s' i = vals s i.
Proof.
  unfold mon_step. intros H Hi. destruct (ev_index e) as [j|] eqn:Ej.
  - destruct (mon_local m (ph s) (ncall s) j (vals s j) e) as [c|[v nc]]; [discriminate|].
    inversion H; subst; cbn. apply upd_other. congruence.
  - destruct (mon_global m (ph s) (ncall s) e); [discriminate|]. inversion H; subst. reflexivity.
Qed.

Lemma step_at m s e s' i :
  mon_step m s e = inr s' -> ev_index e = Some i -> vstep m i (vals s i) e (vals s' i).
Proof.
  unfold mon_step. intros H Hi. rewrite Hi in H.
  destruct (mon_local m (ph s) (ncall s) i (vals s i) e) as [c|[v nc]] eqn:E; [discriminate|].
  injection H as <-. cbn. rewrite upd_same. exact (mon_local_vstep _ _ _ _ _ _ _ _ Hi E).
Qed.

Lemma step_cases m s e s' i :
  mon_step m s e = inr s' ->
  vstep m i (vals s i) e (vals s' i) \/ ev_index e <> Some i /\ vals s' i = vals s i.
Proof.
  intros H. destruct (ev_index e) as [j|] eqn:Ej; [destruct (Nat.eq_dec j i) as [->|Hne]|].
  - left. exact (step_at _ _ _ _ _ H Ej).
  - right. split; [congruence|]. apply (step_other _ _ _ _ _ H). congruence.
  - right. split; [discriminate|]. apply (step_other _ _ _ _ _ H). congruence.
Qed.

Lemma final_at m s i : mon_final m s = true -> i < m_n m -> final_val m (vals s i) = true.
Proof.
  unfold mon_final. intros H Hi. apply Bool.andb_true_iff in H as (_ & Hf).
  rewrite forallb_forall in Hf. apply Hf. apply in_seq. lia.
Qed.

Lemma mon_exec_split m l1 e l2 s0 s :
  mon_exec m (l1 ++ e :: l2) s0 = Some s ->
  exists s1 s2, mon_exec m l1 s0 = Some s1 /\ mon_step m s1 e = inr s2 /\ mon_exec m l2 s2 = Some s.
Proof.
  rewrite mon_exec_app. destruct (mon_exec m l1 s0) as [s1|]; [|discriminate]. cbn.
  destruct (mon_step m s1 e) as [c|s2] eqn:E; [discriminate|]. intros H. exists s1, s2. auto.
Qed.

(** [f] is a flag of value [i] that exactly the accepted [P]-events raise, and
    nothing lowers: along an accepted list there is at most one [P]-event, and
    there is one iff the flag went up. *)
Definition counts_flag (m : mcfg) (i : nat) (P : oev nat -> bool) (f : vst -> bool) : Prop :=
  forall l s s', mon_exec m l s = Some s' ->
  count P l = (if f (vals s i) then 0 else if f (vals s' i) then 1 else 0)
  /\ (f (vals s i) = true -> f (vals s' i) = true).

Lemma counts_flag_intro m i (P : oev nat -> bool) (f : vst -> bool) :
  (forall v e v', vstep m i v e v' -> if P e then f v = false /\ f v' = true else f v' = f v) ->
  (forall e, P e = true -> ev_index e = Some i) ->
  counts_flag m i P f.
Proof.
  intros H1 H2 l. induction l as [|e l IH]; intros s s' H; cbn in H.
  - injection H as <-. cbn. destruct (f (vals s i)); auto.
  - destruct (mon_step m s e) as [c|s1] eqn:E; [discriminate|].
    destruct (IH s1 s' H) as (Hc & Hm). cbn [count]. rewrite Hc.
    destruct (step_cases m s e s1 i E) as [V|(Hne & Heq)].
    + apply H1 in V. destruct (P e).
      * destruct V as (-> & F1). rewrite F1, (Hm F1). split; [reflexivity|discriminate].
      * rewrite V in *. auto.
    + destruct (P e) eqn:Pe; [elim (Hne (H2 e Pe))|]. rewrite Heq in *. auto.
Qed.

Lemma count_from_start m i P f l s :
  counts_flag m i P f -> f vst0 = false -> mon_exec m l mstate0 = Some s ->
  count P l = if f (vals s i) then 1 else 0.
Proof. intros H F0 R. destruct (H l mstate0 s R) as (Hc & _). cbn in Hc. rewrite F0 in Hc. exact Hc. Qed.

Lemma gen_flag m i : counts_flag m i (is_gen_of i) (fun v => negb (ival_eqb (v_in v) VNone)).
Proof.
  apply counts_flag_intro.
  - intros v e v' []; cbn; rewrite ?Nat.eqb_refl; auto. destruct (m_ref m); reflexivity.
  - intros [] H; try discriminate H. apply Nat.eqb_eq in H as ->. reflexivity.
Qed.

Lemma call_flag m i : counts_flag m i (is_call_of i) (fun v => negb (oval_eqb (v_out v) WNone)).
Proof.
  apply counts_flag_intro.
  - intros v e v' []; cbn; rewrite ?Nat.eqb_refl; auto.
  - intros [] H; try discriminate H. apply Nat.eqb_eq in H as ->. reflexivity.
Qed.

Lemma dropout_flag m i : counts_flag m i (is_dropout_of i) (fun v => oval_eqb (v_out v) WDropped).
Proof.
  apply counts_flag_intro.
  - intros v e v' []; cbn; rewrite ?Nat.eqb_refl; auto.
  - intros [] H; try discriminate H. apply Nat.eqb_eq in H as ->. reflexivity.
Qed.

Lemma dropin_flag m i : counts_flag m i (is_dropin_of i) (fun v => ival_eqb (v_in v) VDropped).
Proof.
  apply counts_flag_intro.
  - intros v e v' []; cbn; rewrite ?Nat.eqb_refl; auto. destruct (m_ref m); reflexivity.
  - intros [] H; try discriminate H; apply Nat.eqb_eq in H as ->; reflexivity.
Qed.

Lemma uses_set_cnt cs k' k : uses (set_cnt cs k') k = if ckind_eqb k' k then true else uses cs k.
Proof. destruct k', k; reflexivity. Qed.

Lemma ckind_eqb_eq a b : ckind_eqb a b = true -> a = b.
Proof. destruct a, b; easy. Qed.

Lemma counted_flag m k i : counts_flag m i (is_count_of k i) (fun v => uses (v_cnt v) k).
Proof.
  apply counts_flag_intro.
  - intros v e v' []; cbn; rewrite ?Nat.eqb_refl, ?Bool.andb_true_r; auto.
    rewrite uses_set_cnt. destruct (ckind_eqb k0 k) eqn:Ek; [|reflexivity].
    apply ckind_eqb_eq in Ek as ->. auto.
  - intros [] H; try discriminate H. apply Bool.andb_true_iff in H as (_ & H).
    apply Nat.eqb_eq in H as ->. reflexivity.
Qed.

Lemma count_none_inv m (P : oev nat -> bool) (I : vst -> Prop) :
  (forall i v e v', vstep m i v e v' -> I v -> I v' /\ P e = false) ->
  (forall e, ev_index e = None -> P e = false) ->
  forall l s s', (forall i, I (vals s i)) -> mon_exec m l s = Some s' -> count P l = 0.
Proof.
  intros H Hg. induction l as [|e l IH]; intros s s' Is Hl; cbn in *; [reflexivity|].
  destruct (mon_step m s e) as [c|s1] eqn:E; [discriminate|].
  assert (Pe : P e = false).
  { destruct (ev_index e) as [i|] eqn:Ei; [|exact (Hg e Ei)].
    exact (proj2 (H i _ _ _ (step_at _ _ _ _ _ E Ei) (Is i))). }
  rewrite Pe. apply (IH s1 s'); [|exact Hl].
  intros i. destruct (step_cases m s e s1 i E) as [V|(_ & ->)]; [exact (proj1 (H i _ _ _ V (Is i)))|apply Is].
Qed.

Lemma count_none m (P : oev nat -> bool) :
  (forall i v e v', vstep m i v e v' -> P e = false) ->
  (forall e, ev_index e = None -> P e = false) ->
  forall l s s', mon_exec m l s = Some s' -> count P l = 0.
Proof.
  intros H Hg l s s'. apply (count_none_inv m P (fun _ => True)); [|exact Hg|exact (fun _ => I)].
  intros i v e v' V _. split; [exact I|exact (H i v e v' V)].
Qed.

Theorem calls_once m l :
  sb_sample m l = true -> forall i, count (is_call_of i) l = if i <? m_n m then 1 else 0.
Proof.
  intros H i. apply sb_sample_exec in H as (s & R & F).
  destruct (Nat.ltb_spec i (m_n m)) as [Hi|Hi].
  - rewrite (count_from_start m i _ _ l s (call_flag m i) eq_refl R).
    pose proof (final_at m s i F Hi) as Fv. apply Bool.andb_true_iff in Fv as (_ & Fv).
    apply oval_eqb_eq in Fv as ->. destruct (m_odrop m); reflexivity.
  - apply (count_none m (is_call_of i)) with (3 := R); [|intros []; easy].
    intros j v e v' []; try reflexivity; apply Nat.eqb_neq; lia.
Qed.

Theorem gen_once m l :
  sb_sample m l = true -> m_gen m = true ->
  forall i, count (is_gen_of i) l = if i <? m_n m then 1 else 0.
Proof.
  intros H Hg i. apply sb_sample_exec in H as (s & R & F).
  destruct (Nat.ltb_spec i (m_n m)) as [Hi|Hi].
  - rewrite (count_from_start m i _ _ l s (gen_flag m i) eq_refl R).
    pose proof (final_at m s i F Hi) as Fv. unfold final_val in Fv. rewrite Hg in Fv.
    apply Bool.andb_true_iff in Fv as (Fv & _).
    destruct (v_in (vals s i)); try reflexivity. destruct (m_ref m), (m_idrop m); discriminate.
  - apply (count_none m (is_gen_of i)) with (3 := R); [|intros []; easy].
    intros j v e v' []; try reflexivity. apply Nat.eqb_neq. lia.
Qed.

Theorem dropout_once m l :
  sb_sample m l = true ->
  forall i, count (is_dropout_of i) l = if (i <? m_n m) && m_odrop m then 1 else 0.
Proof.
  intros H i. apply sb_sample_exec in H as (s & R & F).
  destruct ((i <? m_n m) && m_odrop m) eqn:Hcond.
  - apply Bool.andb_true_iff in Hcond as (Hi & Ho). apply Nat.ltb_lt in Hi.
    rewrite (count_from_start m i _ _ l s (dropout_flag m i) eq_refl R).
    pose proof (final_at m s i F Hi) as Fv. apply Bool.andb_true_iff in Fv as (_ & Fv).
    rewrite Ho in Fv. rewrite Fv. reflexivity.
  - apply (count_none m (is_dropout_of i)) with (3 := R); [|intros []; easy].
    intros j v e v' [| | | | |a c Hj Ho|]; try reflexivity. apply Nat.eqb_neq. intros ->.
    apply Nat.ltb_lt in Hj. rewrite Hj, Ho in Hcond. discriminate.
Qed.

Theorem dropin_at_most_once m l :
  sb_sample m l = true -> forall i, count (is_dropin_of i) l <= 1.
Proof.
  intros H i. apply sb_sample_exec in H as (s & R & _).
  rewrite (count_from_start m i _ _ l s (dropin_flag m i) eq_refl R).
  destruct (ival_eqb (v_in (vals s i)) VDropped); lia.
Qed.

Theorem by_value_never_dropped m l :
  sb_sample m l = true -> m_ref m = false -> count is_fw_dropin l = 0.
Proof.
  intros H Hr. apply sb_sample_exec in H as (s & R & _).
  apply (count_none m is_fw_dropin) with (3 := R); [|intros []; easy].
  intros j v e v' []; try reflexivity. congruence.
Qed.

(** A lent input is never owned by the benchmarked function, which hence never drops it. *)
Theorem lent_never_dropped_by_callee m l :
  sb_sample m l = true -> m_ref m = true -> count is_udropin l = 0.
Proof.
  intros H Hr. apply sb_sample_exec in H as (s & R & _).
  apply (count_none_inv m is_udropin (fun v => v_in v <> VGiven)) with (4 := R);
    [|intros []; easy|discriminate].
  intros j v e v' [] Hv; cbn in *; try (split; [discriminate|reflexivity]).
  - rewrite Hr. split; [discriminate|reflexivity].
  - elim Hv. reflexivity.
  - split; [exact Hv|reflexivity].
Qed.

Theorem lent_dropped_once m l :
  sb_sample m l = true -> m_gen m = true -> m_ref m = true ->
  forall i, i < m_n m -> count (is_fw_dropin_of i) l = if m_idrop m then 1 else 0.
Proof.
  intros H Hg Hr i Hi.
  assert (Hu : count (is_udropin_of i) l = 0).
  { pose proof (lent_never_dropped_by_callee m l H Hr) as Hz.
    pose proof (count_le (is_udropin_of i) is_udropin l) as Hle.
    apply Nat.le_0_r. rewrite <- Hz. apply Hle. intros []; easy. }
  apply sb_sample_exec in H as (s & R & F).
  pose proof (count_from_start m i _ _ l s (dropin_flag m i) eq_refl R) as Hc.
  rewrite count_dropin_split, Hu, Nat.add_0_r in Hc. rewrite Hc.
  pose proof (final_at m s i F Hi) as Fv. unfold final_val in Fv. rewrite Hg, Hr in Fv.
  apply Bool.andb_true_iff in Fv as (Fv & _).
  destruct (m_idrop m); [rewrite Fv; reflexivity|].
  apply ival_eqb_eq in Fv as ->. reflexivity.
Qed.

Lemma vstep_pre m i v e v' :
  vstep m i v e v' ->
  match e with
  | OCount _ _ => v_in v = VLive
  | OCall _ _ => m_gen m = true -> v_in v = VLive /\ cs_eqb (v_cnt v) (m_cs m) = true
  | ODropOut _ => v_out v = WLive
  | ODropIn _ => v_out v = if m_odrop m then WDropped else WLive
  | _ => True
  end.
Proof. intros []; cbn; auto; congruence. Qed.

Lemma uses_none k : uses no_counters k = false.
Proof. destruct k; reflexivity. Qed.

Lemma cs_eqb_uses a b k : cs_eqb a b = true -> uses a k = uses b k.
Proof.
  unfold cs_eqb. repeat rewrite Bool.andb_true_iff. intros (((H1 & H2) & H3) & H4).
  apply Bool.eqb_prop in H1, H2, H3, H4. destruct k; cbn; assumption.
Qed.

(** In each case the event is only accepted in a state where the flag of the
    earlier event is up. *)
Theorem happens_before m l1 e l2 :
  sb_sample m (l1 ++ e :: l2) = true ->
  match e with
  | OCount _ i => 1 <= count (is_gen_of i) l1
  | OCall i _ =>
      (m_gen m = true -> 1 <= count (is_gen_of i) l1)
      /\ (m_gen m = true -> forall k, uses (m_cs m) k = true -> 1 <= count (is_count_of k i) l1)
  | ODropOut i => 1 <= count (is_call_of i) l1
  | ODropIn i => m_odrop m = true -> 1 <= count (is_dropout_of i) l1
  | _ => True
  end.
Proof.
  intros H. apply sb_sample_exec in H as (s & R & _).
  apply mon_exec_split in R as (s1 & s2 & R1 & Hs & _).
  destruct e; try exact I;
    pose proof (vstep_pre _ _ _ _ _ (step_at m s1 _ s2 _ Hs eq_refl)) as V; cbn in V.
  - rewrite (count_from_start m id _ _ l1 s1 (gen_flag m id) eq_refl R1), V. reflexivity.
  - split; intros Hg; destruct (V Hg) as (Hv & Hc).
    + rewrite (count_from_start m in_id _ _ l1 s1 (gen_flag m in_id) eq_refl R1), Hv. reflexivity.
    + intros k Hk.
      rewrite (count_from_start m in_id _ _ l1 s1 (counted_flag m k in_id) (uses_none k) R1).
      rewrite (cs_eqb_uses _ _ k Hc), Hk. reflexivity.
  - rewrite (count_from_start m id _ _ l1 s1 (call_flag m id) eq_refl R1), V. reflexivity.
  - intros Ho. rewrite Ho in V.
    rewrite (count_from_start m id _ _ l1 s1 (dropout_flag m id) eq_refl R1), V. reflexivity.
Qed.

Theorem counted_once m l :
  sb_sample m l = true -> m_gen m = true ->
  forall k i, count (is_count_of k i) l = if (i <? m_n m) && uses (m_cs m) k then 1 else 0.
Proof.
  intros H Hg k i. pose proof (calls_once m l H i) as Hcall.
  pose proof H as H'. apply sb_sample_exec in H' as (s & R & _).
  destruct ((i <? m_n m) && uses (m_cs m) k) eqn:Hcond.
  - apply Bool.andb_true_iff in Hcond as (Hi & Hk). rewrite Hi in Hcall.
    (* at most one count, by the flag; at least one before the call of [i] *)
    pose proof (count_from_start m i _ _ l s (counted_flag m k i) (uses_none k) R) as Hc.
    destruct (count_ge_split (is_call_of i) l) as (l1 & e & l2 & -> & He); [lia|].
    destruct e; try discriminate He. apply Nat.eqb_eq in He as ->.
    destruct (happens_before m l1 _ l2 H) as (_ & Hb). specialize (Hb Hg k Hk).
    rewrite count_app in *. destruct (uses (v_cnt (vals s i)) k); lia.
  - apply (count_none m (is_count_of k i)) with (3 := R); [|intros []; easy].
    intros j v e v' [|k' c o Hj Hk' _| | | | |]; try reflexivity. cbn.
    destruct (ckind_eqb k' k) eqn:Ek; [|reflexivity]. apply ckind_eqb_eq in Ek as ->.
    apply Nat.eqb_neq. intros ->. apply Nat.ltb_lt in Hj. rewrite Hj, Hk' in Hcond. discriminate.
Qed.
