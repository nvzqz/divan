(** Release build, no guard: the tallies modulo 2^64 (property C10, the region
    outside [no_overflow]). *)
From DivanV Require Import Base.Res Model.Tally Proofs.Tally.
Local Open Scope Z_scope.

Definition mtally (k : opk) (ops : list aop) : tally :=
  mkT (spec_count k ops mod two64N)%N (spec_bytes_m k ops mod two64N)%N.

Lemma mtally_snoc k pre o :
  mtally k (pre ++ [o]) =
  if opk_eqb (kind_of o) k
  then mkT ((t_count (mtally k pre) + 1) mod two64N)%N ((t_size (mtally k pre) + op_bytes_m o) mod two64N)%N
  else mtally k pre.
Proof.
  unfold mtally, spec_bytes_m. rewrite spec_count_snoc, sum_of_kind_snoc.
  destruct (opk_eqb (kind_of o) k); cbn [t_count t_size].
  - rewrite !N.add_mod_idemp_l by discriminate. reflexivity.
  - rewrite !N.add_0_r. reflexivity.
Qed.

Definition all_in_range (d : aop -> Z) (ops : list aop) : Prop :=
  forall n, in_i64 (sumZ (map d (firstn n ops))) = true.

Lemma all_in_range_snoc d pre o :
  all_in_range d (pre ++ [o]) ->
  all_in_range d pre /\ - two63 <= sumZ (map d pre) + d o < two63.
Proof.
  intros H. split.
  - intros n. specialize (H (Nat.min n (length pre))).
    rewrite firstn_app, <- firstn_firstn, firstn_all in H.
    replace (Nat.min n (length pre) - length pre)%nat with 0%nat in H by lia.
    rewrite app_nil_r in H. exact H.
  - specialize (H (length (pre ++ [o]))). rewrite firstn_all, sumZ_map_snoc in H.
    apply in_i64_range, H.
Qed.

(** While the running sum stays in range the recorded maximum follows the
    peak: an update takes the new sum into account, and leaving the maximum
    alone is right when the sum did not rise. *)
Lemma peak_step d pre o m :
  (all_in_range d pre -> m = peak d pre) -> all_in_range d (pre ++ [o]) ->
  Z.max m (wrap_i64 (sumZ (map d pre) + d o)) = peak d (pre ++ [o]) /\
  (d o <= 0 -> m = peak d (pre ++ [o])).
Proof.
  intros Hm [R0 R]%all_in_range_snoc. rewrite (Hm R0), wrap_i64_id by exact R. split.
  - symmetry. apply peak_snoc.
  - intros Hle. symmetry. apply peak_snoc_le, Hle.
Qed.

Record winv (pre : list aop) (i : info) : Prop := {
  w_rows : forall k, get_tally i k = mtally k pre;
  w_cc : i_cur_count i = wrap_i64 (live_count pre);
  w_cs : i_cur_size i = wrap_i64 (live_size pre);
  w_mc : all_in_range delta_count pre -> i_max_count i = peak delta_count pre;
  w_ms : all_in_range delta_size pre -> i_max_size i = peak delta_size pre
}.

Lemma winv_init : winv [] info_init.
Proof. constructor; try reflexivity. intros []; reflexivity. Qed.

Lemma step_winv pre o i :
  op_wf o = true -> winv pre i -> exists i', step false i o = Ok i' /\ winv (pre ++ [o]) i'.
Proof.
  intros Hwf [Hr Hcc Hcs Hmc Hms].
  pose proof (peak_step delta_count pre o _ Hmc) as Pc.
  pose proof (peak_step delta_size pre o _ Hms) as Ps.
  assert (Hrow : forall k,
    (if opk_eqb (kind_of o) k
     then mkT ((t_count (get_tally i (kind_of o)) + 1) mod two64N)%N
              ((t_size (get_tally i (kind_of o)) + op_bytes_m o) mod two64N)%N
     else get_tally i k) = mtally k (pre ++ [o])).
  { intros k. rewrite mtally_snoc, !Hr.
    destruct (opk_eqb (kind_of o) k) eqn:E; [apply opk_eqb_eq in E; subst k|]; reflexivity. }
  destruct o as [sz|sz|old new]; cbn [step].
  - unfold tally_alloc. rewrite tally_op_false. cbn. rewrite add_i64_false. cbn. rewrite add_i64_false.
    unfold usize_as_i64. rewrite Hcc, Hcs, !wrap_add_l, wrap_add_r.
    eexists. split; [reflexivity|]. constructor; cbn.
    + intros k. rewrite <- Hrow. destruct k; reflexivity.
    + rewrite live_count_snoc. reflexivity.
    + rewrite live_size_snoc. reflexivity.
    + intros R. apply Pc, R.
    + intros R. apply Ps, R.
  - unfold tally_dealloc. rewrite tally_op_false. cbn. rewrite sub_i64_false. cbn. rewrite sub_i64_false.
    unfold usize_as_i64. rewrite Hcc, Hcs, !wrap_sub_l, wrap_sub_r.
    eexists. split; [reflexivity|]. constructor; cbn.
    + intros k. rewrite <- Hrow. destruct k; reflexivity.
    + rewrite live_count_snoc. reflexivity.
    + rewrite live_size_snoc. reflexivity.
    + intros R. apply Pc; [exact R|discriminate].
    + intros R. apply Ps; [exact R|cbn; lia].
  - apply andb_prop in Hwf. destruct Hwf as [Ho Hn]. apply N.ltb_lt in Ho, Hn.
    rewrite tally_realloc_eq, tally_op_false by assumption. cbn [bind]. rewrite add_i64_false, set_tally_eq.
    cbn [i_cur_size i_max_size]. rewrite Hcs, wrap_add_l, wrap_add_r.
    eexists. split; [reflexivity|]. constructor; cbn -[op_bytes_m kind_of opk_eqb].
    + intros k. rewrite <- Hrow. destruct k; reflexivity.
    + rewrite Hcc, live_count_snoc, Z.add_0_r. reflexivity.
    + rewrite live_size_snoc. reflexivity.
    + intros R. apply Pc; [exact R|discriminate].
    + intros R. apply Ps, R.
Qed.

Lemma run_winv ops : forallb op_wf ops = true -> exists i, run false ops = Ok i /\ winv ops i.
Proof.
  induction ops as [|o ops IH] using rev_ind; intros H.
  - exists info_init. split; [reflexivity|apply winv_init].
  - rewrite forallb_app in H. apply andb_prop in H. destruct H as [H1 H2].
    cbn [forallb] in H2. rewrite andb_true_r in H2.
    destruct (IH H1) as [i [Hr Hi]].
    destruct (step_winv ops o i H2 Hi) as [i' [Hs Hi']].
    exists i'. split; [|exact Hi']. rewrite run_snoc, Hr. exact Hs.
Qed.

Lemma spec_bytes_m_small k ops : forallb realloc_small ops = true -> spec_bytes_m k ops = spec_bytes k ops.
Proof.
  intros H. unfold spec_bytes_m, spec_bytes, ops_of_kind. f_equal.
  apply map_ext_in. intros o Ho. apply op_bytes_m_small.
  apply filter_In in Ho. rewrite forallb_forall in H. apply H, Ho.
Qed.

Theorem release_exact_mod ops :
  forallb op_wf ops = true ->
  exists i, run false ops = Ok i /\
    (forall k, t_count (get_tally i k) = (spec_count k ops mod two64N)%N /\
               t_size (get_tally i k) = (spec_bytes_m k ops mod two64N)%N) /\
    (forallb realloc_small ops = true -> forall k, spec_bytes_m k ops = spec_bytes k ops) /\
    i_cur_count i = wrap_i64 (live_count ops) /\
    i_cur_size i = wrap_i64 (live_size ops) /\
    ((forall n, in_i64 (live_count (firstn n ops)) = true) -> i_max_count i = peak delta_count ops) /\
    ((forall n, in_i64 (live_size (firstn n ops)) = true) -> i_max_size i = peak delta_size ops).
Proof.
  intros H. destruct (run_winv ops H) as [i [Hr [Hrows Hcc Hcs Hmc Hms]]].
  exists i. split; [exact Hr|]. split.
  - intros k. rewrite Hrows. split; reflexivity.
  - split; [intros S k; apply spec_bytes_m_small; exact S|].
    split; [exact Hcc|]. split; [exact Hcs|]. split; [exact Hmc|exact Hms].
Qed.

(** Row sums really wrap ... *)
Example release_mod_example :
  run false [OAlloc 18446744073709551615; OAlloc 18446744073709551615; ODealloc 3; ORealloc 9223372036854775808 0]
  = Ok (mkI tally_zero (mkT 1 9223372036854775808) (mkT 2 18446744073709551614) (mkT 1 3)
            1 2 9223372036854775803 9223372036854775803).
Proof. vm_compute. reflexivity. Qed.

(** ... and a size change beyond 2^63 is *not* tallied as |new - old|: growing
    from 2 to 2^64-1 bytes is recorded as a 3-byte grow that lowers the live
    bytes by 3 (so "exact byte sum mod 2^64" is false for such requests; they
    violate [Layout]'s size <= isize::MAX). *)
Example release_big_realloc_refutes_exact_sum :
  run false [ORealloc 2 18446744073709551615]
  = Ok (mkI (mkT 1 3) tally_zero tally_zero tally_zero 0 0 (-3) 0)
  /\ op_bytes (ORealloc 2 18446744073709551615) = 18446744073709551613%N
  /\ op_bytes_m (ORealloc 2 18446744073709551615) = 3%N.
Proof. vm_compute. repeat split; reflexivity. Qed.

(** The max half needs its range hypothesis: after live bytes wrapped, the
    recorded maximum is below the true peak. *)
Example release_max_needs_range :
  run false [OAlloc 9223372036854775807; OAlloc 2; ODealloc 9223372036854775807]
  = Ok (mkI tally_zero tally_zero (mkT 2 9223372036854775809) (mkT 1 9223372036854775807)
            1 2 2 9223372036854775807)
  /\ peak delta_size [OAlloc 9223372036854775807; OAlloc 2; ODealloc 9223372036854775807] = 9223372036854775809.
Proof. vm_compute. split; reflexivity. Qed.

Lemma release_clauses_spec ops i :
  forallb fst (release_sb_clauses ops i) = true <->
  (forall k, get_tally i k = mtally k ops) /\
  i_cur_count i = wrap_i64 (live_count ops) /\ i_cur_size i = wrap_i64 (live_size ops).
Proof.
  split.
  - cbn. intros [Hg%tally_eqb_spec [Hs%tally_eqb_spec [Ha%tally_eqb_spec [Hd%tally_eqb_spec
      [Hc%Z.eqb_eq [Hz%Z.eqb_eq _]%andb_prop]%andb_prop]%andb_prop]%andb_prop]%andb_prop]%andb_prop.
    split; [intros []; assumption|split; assumption].
  - intros [Hr [Hc Hz]].
    pose proof (Hr KGrow) as Hg. pose proof (Hr KShrink) as Hs.
    pose proof (Hr KAlloc) as Ha. pose proof (Hr KDealloc) as Hd.
    cbn in Hg, Hs, Ha, Hd |- *. rewrite Hg, Hs, Ha, Hd, Hc, Hz. unfold mtally.
    rewrite !(proj2 (tally_eqb_spec _ _ _) eq_refl), !Z.eqb_refl. reflexivity.
Qed.

Theorem release_sb_meaning ops i :
  release_sb ops (Ok i) = true <->
  (forallb op_wf ops = true ->
   (forall k, get_tally i k = mtally k ops) /\
   i_cur_count i = wrap_i64 (live_count ops) /\ i_cur_size i = wrap_i64 (live_size ops)).
Proof.
  unfold release_sb. apply guarded_true_iff. intros _. apply release_clauses_spec.
Qed.

Theorem release_model_sb ops : release_sb ops (run false ops) = true.
Proof.
  destruct (forallb op_wf ops) eqn:H.
  - destruct (run_winv ops H) as [i [Hr [Hrows Hcc Hcs _ _]]]. rewrite Hr.
    apply release_sb_meaning. intros _. split; [exact Hrows|split; assumption].
  - unfold release_sb. rewrite H. reflexivity.
Qed.

Theorem release_sb_no_panic ops p : forallb op_wf ops = true -> release_sb ops (Panic p) = false.
Proof. intros H. unfold release_sb. rewrite H. reflexivity. Qed.
