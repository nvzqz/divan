(** What the boolean specification [stats_sb] (Model/Stats.v) says at the level
    of propositions: its time and provenance clauses, then the whole.  The
    presence and means clauses are read in Proofs/StatsProv.v, with [is_some] and
    [totals_of]. *)
From DivanV Require Import Base.Res Model.Stats.
Local Open Scope N_scope.

Lemma forallb2_iff {A B} (f : A -> B -> bool) (Q : A -> B -> Prop) :
  (forall a b, f a b = true <-> Q a b) ->
  forall l1 l2, forallb2 f l1 l2 = true <-> Forall2 Q l1 l2.
Proof.
  intros Hf. induction l1 as [|a r IH]; intros [|b r2]; cbn [forallb2]; split; intros H;
    try discriminate; try constructor; try (inversion H; fail).
  - apply Hf. apply andb_true_iff in H. apply H.
  - apply IH. apply andb_true_iff in H. apply H.
  - inversion H; subst. apply andb_true_iff. split; [apply Hf; assumption|]. apply IH. assumption.
Qed.

Lemma forallb2_spec {A B} (f : A -> B -> bool) l1 l2 :
  forallb2 f l1 l2 = true <-> Forall2 (fun a b => f a b = true) l1 l2.
Proof. apply forallb2_iff. reflexivity. Qed.

Lemma xq_close_spec a b c d :
  xq_close (Fin a b) (Fin c d) = true <->
  b <> 0 /\ d <> 0 /\
  (a * d <= c * b -> (c * b - a * d) * 10 ^ 12 <= c * b) /\
  (c * b <= a * d -> (a * d - c * b) * 10 ^ 12 <= c * b).
Proof.
  cbn [xq_close]. change 1000000000000 with (10 ^ 12). generalize (a * d) (c * b). intros x y.
  rewrite !andb_true_iff, !negb_true_iff, !N.eqb_neq, N.leb_le.
  destruct (x <? y) eqn:E; [apply N.ltb_lt in E|apply N.ltb_ge in E];
    (split; [intros ((Hb & Hd) & H)|intros (Hb & Hd & H1 & H2)]); repeat split; auto; intros; lia.
Qed.

Lemma xq_close_classes x y : xq_close x y = true ->
  (exists a b c d, x = Fin a b /\ y = Fin c d /\ (a = 0 <-> c = 0)) \/ (x = Inf /\ y = Inf).
Proof.
  destruct x as [a b| |], y as [c d| |]; try discriminate; [|right; split; reflexivity].
  intros H. left. exists a, b, c, d. split; [reflexivity|]. split; [reflexivity|].
  (* with a zero on one side, the other cross product [y] satisfies [y * 1e12 <= z] for a [z <= y] *)
  assert (forall y z, (0 <= y -> (y - 0) * 10 ^ 12 <= z) -> z <= y -> y = 0) as Hz by (intros y z Hy Hzy; lia).
  apply xq_close_spec in H. destruct H as (Hb & Hd & H1 & H2). split; intros ->.
  - rewrite N.mul_0_l in H1. destruct (proj1 (N.eq_mul_0 c b) (Hz _ _ H1 (N.le_refl _))); [assumption|contradiction].
  - rewrite N.mul_0_l in H2. destruct (proj1 (N.eq_mul_0 a d) (Hz _ _ H2 (N.le_0_l _))); [assumption|contradiction].
Qed.

Lemma time_ok_spec inp st :
  time_ok inp st = true <->
  st_sample_count st = N.of_nat (length (in_durs inp)) mod 2 ^ 32 /\
  st_iter_count st = in_size inp * N.of_nat (length (in_durs inp)) /\
  fastest (st_time st) = spec_fastest (in_durs inp) (in_size inp) /\
  slowest (st_time st) = spec_slowest (in_durs inp) (in_size inp) /\
  median (st_time st) = spec_median (in_durs inp) (in_size inp) /\
  mean (st_time st) = spec_mean (in_durs inp) (in_size inp) /\
  fastest (st_time st) <= median (st_time st) <= slowest (st_time st) /\
  fastest (st_time st) <= mean (st_time st) <= slowest (st_time st).
Proof.
  unfold time_ok. split.
  - intros H. repeat (apply andb_true_iff in H; destruct H as [H ?]).
    repeat split; first [apply N.eqb_eq|apply N.leb_le]; assumption.
  - intros (? & ? & ? & ? & ? & ? & (? & ?) & (? & ?)).
    repeat (apply andb_true_iff; split); first [apply N.eqb_eq|apply N.leb_le]; assumption.
Qed.

(** The counter clause of a column taken from the sample [s]. *)
Lemma counter_from_iff (seln : stats_set N -> N) s ci (o : option (stats_set N)) :
  match o with
  | None => true
  | Some set => match count_for ci s with Some c => seln set =? c | None => false end
  end = true <->
  (forall set, o = Some set -> exists c, count_for ci s = Some c /\ seln set = c).
Proof.
  destruct o as [set|]; [|split; [discriminate|reflexivity]]. split.
  - intros H ? [= <-]. destruct (count_for ci s) as [c|]; [|discriminate].
    exists c. split; [reflexivity|]. apply N.eqb_eq, H.
  - intros H. destruct (H set eq_refl) as (c & -> & ->). apply N.eqb_refl.
Qed.

Lemma ex_iff {A} (P Q : A -> Prop) : (forall x, P x <-> Q x) -> (exists x, P x) <-> (exists x, Q x).
Proof. intros H. split; intros [x Hx]; exists x; apply H, Hx. Qed.

Lemma column_from_one_spec selq seln inp st d :
  column_from_one selq seln inp st d = true <->
  exists smp, In smp (indexed (in_durs inp)) /\ snd smp = d /\
    Forall2 (fun x v => xq_close x (Fin v (in_size inp)) = true)
            (column_of selq st) (figures_of_index inp (fst smp)) /\
    Forall2 (fun ci o => forall set, o = Some set -> exists c, count_for ci smp = Some c /\ seln set = c)
            (in_counters inp) (st_counts st).
Proof.
  unfold column_from_one, counters_from. rewrite existsb_exists. apply ex_iff. intros smp.
  rewrite !andb_true_iff, N.eqb_eq, forallb2_spec, (forallb2_iff _ _ (counter_from_iff seln smp)). tauto.
Qed.

(** The counter clause of the median column averaged over [s1] and [s2]. *)
Lemma counter_from_two_iff s1 s2 ci (o : option (stats_set N)) :
  match o with
  | None => true
  | Some set => match count_for ci s1, count_for ci s2 with
                | Some c1, Some c2 => median set =? (c1 + c2) / 2
                | _, _ => false
                end
  end = true <->
  (forall set, o = Some set ->
     exists c1 c2, count_for ci s1 = Some c1 /\ count_for ci s2 = Some c2 /\
                   median set = (c1 + c2) / 2).
Proof.
  destruct o as [set|]; [|split; [discriminate|reflexivity]]. split.
  - intros H ? [= <-]. destruct (count_for ci s1) as [c1|]; [|discriminate].
    destruct (count_for ci s2) as [c2|]; [|discriminate].
    exists c1, c2. repeat split. apply N.eqb_eq, H.
  - intros H. destruct (H set eq_refl) as (c1 & c2 & -> & -> & ->). apply N.eqb_refl.
Qed.

Lemma median_from_two_spec inp st :
  median_from_two inp st = true <->
  exists s1 s2, In s1 (indexed (in_durs inp)) /\ In s2 (indexed (in_durs inp)) /\ fst s1 <> fst s2 /\
    snd s1 = mid_lo (in_durs inp) /\ snd s2 = mid_hi (in_durs inp) /\
    Forall2 (fun x v => xq_close x (Fin v (2 * in_size inp)) = true)
            (column_of median st)
            (map (fun p => fst p + snd p)
                 (combine (figures_of_index inp (fst s1)) (figures_of_index inp (fst s2)))) /\
    Forall2 (fun ci o => forall set, o = Some set ->
               exists c1 c2, count_for ci s1 = Some c1 /\ count_for ci s2 = Some c2 /\
                             median set = (c1 + c2) / 2)
            (in_counters inp) (st_counts st).
Proof.
  unfold median_from_two. cbv zeta. rewrite existsb_exists. split.
  - intros (s1 & I1 & H). apply andb_true_iff in H. destruct H as [H1 H]. apply existsb_exists in H.
    destruct H as (s2 & I2 & H). repeat (apply andb_true_iff in H; destruct H as [H ?]).
    exists s1, s2. apply N.eqb_eq in H1. apply negb_true_iff, N.eqb_neq in H.
    repeat (split; [assumption|]). split; [apply N.eqb_eq; assumption|].
    split; [apply forallb2_spec|apply (forallb2_iff _ _ (counter_from_two_iff s1 s2))]; assumption.
  - intros (s1 & s2 & I1 & I2 & Hne & H1 & H2 & H3 & H4). exists s1. split; [exact I1|].
    rewrite H1, N.eqb_refl. cbn [andb]. apply existsb_exists. exists s2. split; [exact I2|].
    rewrite H2, N.eqb_refl. apply N.eqb_neq in Hne. rewrite Hne. cbn [negb andb].
    apply andb_true_iff. split; [apply forallb2_spec; exact H3|apply (forallb2_iff _ _ (counter_from_two_iff s1 s2)); exact H4].
Qed.

Lemma provenance_ok_spec inp st :
  provenance_ok inp st = true <->
  match in_durs inp with
  | [] => Forall (fun x => xq_eqb x (Fin 0 1) = true)
                 (column_of fastest st ++ column_of slowest st ++ column_of median st)
  | _ => column_from_one fastest fastest inp st (list_min (in_durs inp)) = true /\
         column_from_one slowest slowest inp st (list_max (in_durs inp)) = true /\
         (if Nat.even (length (in_durs inp)) then median_from_two inp st = true
          else column_from_one median median inp st (mid_hi (in_durs inp)) = true)
  end.
Proof.
  unfold provenance_ok. destruct (in_durs inp) as [|d0 dr].
  - rewrite forallb_forall, Forall_forall. reflexivity.
  - rewrite !andb_true_iff, and_assoc. destruct (Nat.even (length (d0 :: dr))); reflexivity.
Qed.

Lemma stats_sb_spec inp out :
  stats_sb inp out = true <->
  (in_domain inp = true ->
   exists st, out = Ok st /\ time_ok inp st = true /\ forallb xq_is_fin (all_xq st) = true /\
              presence_ok inp st = true /\ means_ok inp st = true /\ provenance_ok inp st = true).
Proof.
  unfold stats_sb. destruct (in_domain inp); cbn [negb]; [|split; [intros _ H; discriminate|reflexivity]].
  destruct out as [st|p]; split.
  - intros H _. do 4 (apply andb_true_iff in H; destruct H as [H ?]). exists st. split; [reflexivity|]. repeat split; assumption.
  - intros H. destruct (H eq_refl) as (st' & [= <-] & -> & -> & -> & -> & ->). reflexivity.
  - discriminate.
  - intros H. destruct (H eq_refl) as (st' & E & _). discriminate.
Qed.
