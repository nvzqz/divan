(** Proofs about Model/Options.v: per-field resolution through any nesting
    depth, field independence, counters per kind, thread-list normalisation,
    ignore flags, the runner level, seconds given as decimal text. *)
From DivanV Require Import Base.Res Model.Options Proofs.ListFacts.
Local Open Scope N_scope.

Lemma first_some_app {A : Type} (xs ys : list (option A)) :
  first_some (xs ++ ys) = opt_or (first_some xs) (first_some ys).
Proof.
  induction xs as [|[a|] xs IH]; cbn [app first_some opt_or]; [destruct (first_some ys)| |exact IH]; reflexivity.
Qed.

Lemma first_some_cons {A : Type} (x : option A) (xs : list (option A)) :
  first_some (x :: xs) = opt_or x (first_some xs).
Proof. destruct x; reflexivity. Qed.

Lemma first_some_snoc {A : Type} (xs : list (option A)) (y : option A) :
  first_some (xs ++ [y]) = opt_or (first_some xs) y.
Proof. rewrite first_some_app. f_equal. destruct y; reflexivity. Qed.

Lemma opt_or_none_r {A : Type} (a : option A) : opt_or a None = a.
Proof. destruct a; reflexivity. Qed.

Lemma opt_or_assoc {A : Type} (a b c : option A) : opt_or (opt_or a b) c = opt_or a (opt_or b c).
Proof. destruct a; reflexivity. Qed.

Lemma option_map_opt_or {A B : Type} (g : A -> B) (a b : option A) :
  option_map g (opt_or a b) = opt_or (option_map g a) (option_map g b).
Proof. destruct a; reflexivity. Qed.

Lemma opt_eqb_refl {A : Type} (eqb : A -> A -> bool) (a : option A) :
  (forall x, eqb x x = true) -> opt_eqb eqb a a = true.
Proof. intros H. destruct a; [apply H | reflexivity]. Qed.

(** Resolution for any projection that [overwrite] treats field-wise. *)
Section Homomorphic.
  Context {A : Type}.
  Variable f : options -> option A.
  Hypothesis Hf : forall a b, f (overwrite a b) = opt_or (f a) (f b).

  Lemma descend_step_proj (p c : option options) :
    lproj f (descend_step p c) = opt_or (lproj f c) (lproj f p).
  Proof.
    destruct p as [p|]; destruct c as [c|]; cbn [descend_step lproj opt_or].
    - apply Hf.
    - reflexivity.
    - symmetry. apply opt_or_none_r.
    - reflexivity.
  Qed.

  Lemma fold_descend_proj (levels : list (option options)) : forall acc,
    lproj f (fold_left descend_step levels acc)
    = opt_or (first_some (rev (map (lproj f) levels))) (lproj f acc).
  Proof.
    induction levels as [|l ls IH]; intros acc; cbn [fold_left map rev]; [reflexivity|].
    rewrite IH, descend_step_proj, first_some_snoc. symmetry. apply opt_or_assoc.
  Qed.

  Lemma at_leaf_proj (runner : options) (e : option options) :
    f (at_leaf runner e) = opt_or (f runner) (lproj f e).
  Proof.
    destruct e as [e|]; cbn [at_leaf lproj]; [apply Hf | symmetry; apply opt_or_none_r].
  Qed.

  (** [C15_resolution] for one projection. *)
  Lemma resolve_proj (runner : options) (groups : list (option options)) (bench : option options) :
    f (resolve runner groups bench) = first_some (precedence f runner groups bench).
  Proof.
    unfold resolve, descend, precedence. rewrite at_leaf_proj, fold_descend_proj.
    cbn [lproj]. rewrite opt_or_none_r, map_app, rev_app_distr. cbn [map rev app].
    rewrite !first_some_cons. reflexivity.
  Qed.

  Lemma resolve_proj_independent (r1 r2 : options) (g1 g2 : list (option options)) (b1 b2 : option options) :
    f r1 = f r2 -> lproj f b1 = lproj f b2 -> Forall2 (fun x y => lproj f x = lproj f y) g1 g2 ->
    f (resolve r1 g1 b1) = f (resolve r2 g2 b2).
  Proof.
    intros Hr Hb Hg. rewrite !resolve_proj. unfold precedence. rewrite Hr, Hb.
    replace (map (lproj f) g2) with (map (lproj f) g1); [reflexivity|].
    induction Hg as [|x y g1' g2' Hxy _ IH]; [reflexivity|]. cbn [map]. rewrite Hxy, IH. reflexivity.
  Qed.

  Lemma field_ok_resolve (eqb : A -> A -> bool) (runner : options) (groups : list (option options))
    (bench : option options) :
    (forall x, eqb x x = true) ->
    field_ok eqb f runner groups bench (resolve runner groups bench) = true.
  Proof.
    intros Hrefl. unfold field_ok. rewrite resolve_proj. apply opt_eqb_refl, Hrefl.
  Qed.
End Homomorphic.

(** Every field is treated field-wise by [overwrite]; for the record's own
    projections this holds by computation. *)
Lemma get_overwrite (fd : field) (a b : options) :
  get fd (overwrite a b) = opt_or (get fd a) (get fd b).
Proof.
  destruct fd as [| | | | | | |[]]; apply option_map_opt_or.
Qed.

Lemma threads_overwrite (a b : options) : o_threads (overwrite a b) = opt_or (o_threads a) (o_threads b).
Proof. reflexivity. Qed.

Lemma counter_overwrite (k : counter_kind) (a b : options) :
  cs_get (o_counters (overwrite a b)) k = opt_or (cs_get (o_counters a) k) (cs_get (o_counters b) k).
Proof. destruct k; reflexivity. Qed.

(** [C15_resolution] *)
Lemma resolution (fd : field) (runner : options) (groups : list (option options)) (bench : option options) :
  get fd (resolve runner groups bench) = first_some (precedence (get fd) runner groups bench).
Proof. apply resolve_proj. apply get_overwrite. Qed.

(** No nesting: the three-level reading of the property's title. *)
Lemma resolution_three_levels (fd : field) (runner bench group : options) :
  get fd (resolve runner [Some group] (Some bench))
  = match get fd runner with
    | Some v => Some v
    | None => match get fd bench with Some v => Some v | None => get fd group end
    end.
Proof.
  rewrite resolution. cbn [precedence map rev app lproj first_some].
  destruct (get fd runner); [reflexivity|]. destruct (get fd bench); [reflexivity|].
  destruct (get fd group); reflexivity.
Qed.

(** [C15_fieldwise_independent] *)
Lemma fieldwise_independent (g : field) (r1 r2 : options) (g1 g2 : list (option options)) (b1 b2 : option options) :
  get g r1 = get g r2 -> lproj (get g) b1 = lproj (get g) b2 ->
  Forall2 (fun x y => lproj (get g) x = lproj (get g) y) g1 g2 ->
  get g (resolve r1 g1 b1) = get g (resolve r2 g2 b2).
Proof. apply resolve_proj_independent. apply get_overwrite. Qed.

Lemma kind_eqb_eq (a b : counter_kind) : kind_eqb a b = true <-> a = b.
Proof. destruct a; destruct b; cbn; split; intros H; try reflexivity; try discriminate. Qed.

Lemma field_eqb_eq (a b : field) : field_eqb a b = true <-> a = b.
Proof.
  split.
  - destruct a; destruct b; try discriminate; try reflexivity.
    intros H. apply kind_eqb_eq in H. congruence.
  - intros <-. destruct a; try reflexivity. apply kind_eqb_eq. reflexivity.
Qed.

Lemma get_set_other (f g : field) (v : option value) (o : options) :
  f <> g -> get g (set_field f v o) = get g o.
Proof.
  intros Hne.
  destruct f as [| | | | | | |kf]; destruct g as [| | | | | | |kg]; try contradiction; try reflexivity.
  destruct kf; destruct kg; try contradiction; reflexivity.
Qed.

(** Changing [f] at any one level (a group at any depth, the runner, the
    benchmark) never changes the effective value of another field [g]. *)
Lemma set_level_independent (f g : field) (v : option value)
  (runner : options) (before after : list (option options)) (lvl : options) (bench : option options) :
  f <> g ->
  get g (resolve runner (before ++ Some (set_field f v lvl) :: after) bench)
  = get g (resolve runner (before ++ Some lvl :: after) bench)
  /\ get g (resolve (set_field f v runner) (before ++ after) bench) = get g (resolve runner (before ++ after) bench)
  /\ get g (resolve runner (before ++ after) (Some (set_field f v lvl)))
     = get g (resolve runner (before ++ after) (Some lvl)).
Proof.
  intros Hne.
  assert (Hset : forall o, get g (set_field f v o) = get g o) by (intros o; apply get_set_other; exact Hne).
  assert (Hrefl : forall l, Forall2 (fun x y => lproj (get g) x = lproj (get g) y) l l)
    by (intros l; apply Forall2_diag, Forall_all; reflexivity).
  repeat split; apply fieldwise_independent; try reflexivity; try apply Hset; try apply Hrefl.
  apply Forall2_app; [apply Hrefl|]. constructor; [apply Hset | apply Hrefl].
Qed.

Lemma get_set_same (f : field) (v : option value) (o : options) :
  get f (set_field f v o) =
  match f, v with
  | (FSampleCount | FSampleSize | FMinTime | FMaxTime | FCounter _), Some (VNum n) => Some (VNum n)
  | FThreads, Some (VList l) => Some (VList l)
  | (FSkipExtTime | FIgnore), Some (VBool b) => Some (VBool b)
  | _, _ => None
  end.
Proof.
  destruct f as [| | | | | | |[]]; destruct v as [[n|l|b]|]; reflexivity.
Qed.

Lemma counters_resolution (k : counter_kind) (runner : options) (groups : list (option options)) (bench : option options) :
  to_collection (o_counters (resolve runner groups bench)) k
  = match first_some (precedence (fun o => cs_get (o_counters o) k) runner groups bench) with
    | Some c => [c]
    | None => []
    end.
Proof.
  unfold to_collection.
  rewrite (resolve_proj (fun o => cs_get (o_counters o) k) (counter_overwrite k)). reflexivity.
Qed.

Lemma cs_insert_get (cs : counter_set) (k k' : counter_kind) (c : N) :
  cs_get (cs_insert cs k c) k' = if kind_eqb k k' then Some c else cs_get cs k'.
Proof. destruct k; destruct k'; reflexivity. Qed.

Lemma set_counter_spec (coll : counter_kind -> list N) (k k' : counter_kind) (c : N) :
  set_counter coll k c k' =
  if kind_eqb k k' then match coll k' with [] => [c] | _ :: r => c :: r end else coll k'.
Proof. destruct k; destruct k'; reflexivity. Qed.

Lemma set_counter_own_kind_only (coll : counter_kind -> list N) (k k' : counter_kind) (c : N) :
  (k <> k' -> set_counter coll k c k' = coll k')
  /\ set_counter coll k c k = match coll k with [] => [c] | _ :: r => c :: r end.
Proof.
  rewrite !set_counter_spec. split.
  - intros Hne. destruct (kind_eqb k k') eqn:E; [|reflexivity].
    apply kind_eqb_eq in E. contradiction.
  - rewrite (proj2 (kind_eqb_eq k k) eq_refl). reflexivity.
Qed.

Fixpoint sorted_le (l : list N) : bool :=
  match l with
  | [] => true
  | x :: r => match r with [] => true | y :: _ => (x <=? y) && sorted_le r end
  end.

Lemma insert_sorted_in (x y : N) (l : list N) : In x (insert_sorted y l) <-> In x (y :: l).
Proof.
  induction l as [|z l IH]; cbn [insert_sorted]; [reflexivity|].
  destruct (y <=? z); [reflexivity|].
  cbn [In] in *. rewrite IH. split; intros [H|[H|H]]; auto.
Qed.

Lemma sort_in (x : N) (l : list N) : In x (sort l) <-> In x l.
Proof.
  unfold sort. induction l as [|y l IH]; cbn [fold_right]; [reflexivity|].
  rewrite insert_sorted_in. cbn [In]. rewrite IH. reflexivity.
Qed.

Lemma insert_sorted_sorted (x : N) (l : list N) : sorted_le l = true -> sorted_le (insert_sorted x l) = true.
Proof.
  induction l as [|y l IH]; intros Hs; cbn [insert_sorted]; [reflexivity|].
  destruct (x <=? y) eqn:E.
  - cbn [sorted_le] in *. rewrite E. exact Hs.
  - assert (Hyx : (y <=? x) = true) by (apply N.leb_le, N.lt_le_incl, N.leb_gt; exact E).
    destruct l as [|z l]; cbn [insert_sorted sorted_le]; [rewrite Hyx; reflexivity|].
    cbn [sorted_le] in Hs. apply andb_true_iff in Hs. destruct Hs as [Hyz Hs]. specialize (IH Hs).
    cbn [insert_sorted] in IH. destruct (x <=? z); cbn [sorted_le] in *; [rewrite Hyx | rewrite Hyz]; exact IH.
Qed.

Lemma sort_sorted (l : list N) : sorted_le (sort l) = true.
Proof.
  unfold sort. induction l as [|y l IH]; cbn [fold_right]; [reflexivity|].
  apply insert_sorted_sorted. exact IH.
Qed.

Lemma dedup_in (x : N) (l : list N) : In x (dedup l) <-> In x l.
Proof.
  induction l as [|y l IH]; [reflexivity|].
  cbn [dedup]. destruct l as [|z l]; [reflexivity|].
  destruct (y =? z) eqn:E; [|cbn [In] in *; rewrite IH; reflexivity].
  apply N.eqb_eq in E. subst z. rewrite IH. cbn [In]. split; [auto|]. intros [H|H]; auto.
Qed.

Lemma dedup_head (l : list N) : forall y, exists t, dedup (y :: l) = y :: t.
Proof.
  induction l as [|z l IH]; intros y; cbn [dedup]; [eexists; reflexivity|].
  destruct (y =? z) eqn:E.
  - apply N.eqb_eq in E. subst z. apply IH.
  - eexists. reflexivity.
Qed.

Lemma dedup_strict (l : list N) : sorted_le l = true -> strictly_increasing (dedup l) = true.
Proof.
  induction l as [|x l IH]; intros Hs; [reflexivity|].
  cbn [dedup]. destruct l as [|y l]; [reflexivity|].
  cbn [sorted_le] in Hs. apply andb_true_iff in Hs. destruct Hs as [Hxy Hs].
  specialize (IH Hs).
  destruct (x =? y) eqn:E; [exact IH|].
  destruct (dedup_head l y) as [t Ht]. rewrite Ht in IH |- *.
  cbn [strictly_increasing] in *. rewrite IH, andb_true_r.
  apply N.ltb_lt, N.le_neq. split; [apply N.leb_le; exact Hxy | apply N.eqb_neq; exact E].
Qed.

Lemma mem_N_in (x : N) (l : list N) : mem_N x l = true <-> In x l.
Proof.
  unfold mem_N. rewrite existsb_exists. split.
  - intros [y [Hin Heq]]. apply N.eqb_eq in Heq. subst. exact Hin.
  - intros Hin. exists x. split; [exact Hin | apply N.eqb_refl].
Qed.

Definition wanted_threads (parallelism : N) (threads : option (list N)) : list N :=
  map (fun n => if n =? 0 then parallelism else n) (match threads with Some l => l | None => [] end).

(** [C15_threads_norm] *)
Lemma threads_norm (parallelism : N) (threads : option (list N)) :
  let out := thread_counts parallelism threads in
  strictly_increasing out = true
  /\ out <> []
  /\ (forall x, In x out <->
        (wanted_threads parallelism threads = [] /\ x = 1) \/ In x (wanted_threads parallelism threads))
  /\ (parallelism <> 0 -> forall x, In x out -> x <> 0).
Proof.
  cbn zeta. unfold thread_counts. fold (wanted_threads parallelism threads).
  set (w := wanted_threads parallelism threads).
  assert (Hstrict : strictly_increasing (dedup (sort w)) = true) by (apply dedup_strict, sort_sorted).
  assert (Hin : forall x, In x (dedup (sort w)) <-> In x w) by (intros x; rewrite dedup_in, sort_in; reflexivity).
  assert (Hmain : forall x, In x match dedup (sort w) with [] => [1] | _ :: _ => dedup (sort w) end <->
                            (w = [] /\ x = 1) \/ In x w).
  { intros x. destruct (dedup (sort w)) as [|d ds] eqn:E.
    - destruct w as [|w0 ws]; [|destruct (proj2 (Hin w0) (or_introl eq_refl))].
      split; [intros [<-|[]]; left; split; reflexivity | intros [[_ ->]|[]]; left; reflexivity].
    - rewrite Hin. split; [intros H; right; exact H|].
      intros [[Hw _]|H]; [|exact H]. rewrite Hw in Hin. destruct (proj1 (Hin d) (or_introl eq_refl)). }
  split; [|split; [|split]].
  - destruct (dedup (sort w)); [reflexivity|exact Hstrict].
  - destruct (dedup (sort w)); discriminate.
  - exact Hmain.
  - intros HP x Hx. apply Hmain in Hx. destruct Hx as [[_ ->]|Hx]; [discriminate|].
    unfold w, wanted_threads in Hx. apply in_map_iff in Hx. destruct Hx as [n [Hn _]].
    destruct (n =? 0) eqn:E; [congruence|]. apply N.eqb_neq in E. congruence.
Qed.

Lemma thread_counts_sb_model (parallelism : N) (threads : option (list N)) :
  thread_counts_sb parallelism threads (thread_counts parallelism threads) = true.
Proof.
  destruct (threads_norm parallelism threads) as (H1 & H2 & H3 & _).
  unfold thread_counts_sb. fold (wanted_threads parallelism threads).
  rewrite H1. cbn [andb].
  destruct (wanted_threads parallelism threads) as [|w0 ws] eqn:Ew.
  - unfold thread_counts. fold (wanted_threads parallelism threads). rewrite Ew. reflexivity.
  - apply andb_true_iff. split; apply forallb_forall; intros x Hx; apply mem_N_in.
    + apply H3. right. exact Hx.
    + apply H3 in Hx. destruct Hx as [[Hnil _]|Hx]; [discriminate|exact Hx].
Qed.

(** 0 stands for the parallelism, duplicates go, the result is sorted; an
    unset or empty list means one thread. *)
Lemma thread_counts_example :
  thread_counts 4 (Some [0; 1; 4]) = [1; 4] /\ thread_counts 4 None = [1]
  /\ thread_counts 8 (Some []) = [1] /\ thread_counts 2 (Some [3; 0; 2; 3]) = [2; 3].
Proof. repeat split; reflexivity. Qed.

Definition ignore_value (runner : options) (groups : list (option options)) (bench : option options) : bool :=
  match first_some (precedence o_ignore runner groups bench) with Some b => b | None => false end.

(** [C15_ignore_flags] *)
Lemma ignore_flags (r : run_ignored) (runner : options) (groups : list (option options)) (bench : option options) :
  effective_ignore (resolve runner groups bench) = ignore_value runner groups bench
  /\ skipped r runner groups bench =
     match r with
     | RunNo => ignore_value runner groups bench
     | RunYes => false
     | RunOnly => negb (ignore_value runner groups bench)
     end.
Proof.
  assert (H : effective_ignore (resolve runner groups bench) = ignore_value runner groups bench).
  { unfold effective_ignore, ignore_value. rewrite (resolve_proj o_ignore (fun a b => eq_refl)). reflexivity. }
  split; [exact H|].
  unfold skipped, should_ignore, should_run. rewrite H.
  destruct (ignore_value runner groups bench); destruct r; reflexivity.
Qed.

Lemma skip_ext_resolution (runner : options) (groups : list (option options)) (bench : option options) :
  effective_skip_ext (resolve runner groups bench)
  = match first_some (precedence o_skip_ext_time runner groups bench) with Some b => b | None => false end.
Proof. unfold effective_skip_ext. rewrite (resolve_proj o_skip_ext_time (fun a b => eq_refl)). reflexivity. Qed.

Lemma list_N_eqb_refl (l : list N) : list_N_eqb l l = true.
Proof. induction l; cbn; [reflexivity|]. rewrite N.eqb_refl. assumption. Qed.

Lemma resolve_sb_model (runner : options) (groups : list (option options)) (bench : option options) :
  resolve_sb runner groups bench (resolve runner groups bench) = true.
Proof.
  unfold resolve_sb.
  rewrite !field_ok_resolve; try reflexivity;
    try apply N.eqb_refl; try apply list_N_eqb_refl; try apply Bool.eqb_reflx.
  apply forallb_forall. intros k _. apply field_ok_resolve; [apply counter_overwrite | apply N.eqb_refl].
Qed.

Lemma spec_effective_correct (runner : options) (groups : list (option options)) (bench : option options) :
  spec_effective runner groups bench = resolve runner groups bench.
Proof.
  unfold spec_effective.
  rewrite <- !(fun f H => @resolve_proj _ f H runner groups bench) by reflexivity.
  destruct (resolve runner groups bench) as [sc ss th [cb cc cy ci] mn mx se ig]. reflexivity.
Qed.

(** Non-vacuity: a three-group nesting in which every level sets something
    else and the runner overrides one field only. *)
Example resolution_example :
  let g1 := set_field FSampleCount (Some (VNum 4)) (set_field FSampleSize (Some (VNum 2)) o_default) in
  let g2 := set_field FSampleCount (Some (VNum 3)) (set_field FThreads (Some (VList [1; 2])) o_default) in
  let g3 := set_field FSampleSize (Some (VNum 1)) (set_field FIgnore (Some (VBool true)) o_default) in
  let b := set_field FIgnore (Some (VBool false)) (set_field FThreads (Some (VList [1])) o_default) in
  let runner := set_field FSampleSize (Some (VNum 7)) o_default in
  let r := resolve runner [Some g1; Some g2; None; Some g3] (Some b) in
  o_sample_count r = Some 3 /\ o_sample_size r = Some 7 /\ o_threads r = Some [1] /\ o_ignore r = Some false
  /\ o_min_time r = None
  /\ skipped RunOnly runner [Some g1; Some g2; None; Some g3] (Some b) = true
  /\ skipped RunNo runner [Some g1; Some g2; None; Some g3] None = true.
Proof. repeat split; reflexivity. Qed.

Lemma get_norm_threads (fd : field) (o : options) :
  get fd (norm_threads o) =
  match fd with
  | FThreads => option_map (fun l => VList (set_threads l)) (o_threads o)
  | _ => get fd o
  end.
Proof. destruct fd; try reflexivity. cbn [get norm_threads o_threads]. destruct (o_threads o); reflexivity. Qed.

Lemma first_some_four {A : Type} (a b c d : option A) :
  first_some [a; b; c; d] = opt_or a (opt_or (opt_or b c) d).
Proof.
  rewrite !first_some_cons. change (first_some []) with (@None A).
  rewrite opt_or_none_r, opt_or_assoc. reflexivity.
Qed.

Lemma runner_level_spec (fd : field) (before flags env after : options) :
  get fd (runner_level before flags env after)
  = first_some [get fd (norm_threads after); get fd (norm_threads flags); get fd (norm_threads env);
                get fd (norm_threads before)].
Proof. unfold runner_level. rewrite !get_overwrite. symmetry. apply first_some_four. Qed.

(** Once every precedence list is folded into [opt_or]s, [spec_runner] is
    [runner_level] with [overwrite] unfolded. *)
Lemma spec_runner_correct (before flags env after : options) :
  spec_runner before flags env after = runner_level before flags env after.
Proof. unfold spec_runner. cbn [map]. rewrite !first_some_four. reflexivity. Qed.

Lemma bytes_format_level_spec (before flag env after : option bool) :
  bytes_format_level before flag env after
  = match first_some [after; flag; env; before] with Some b => b | None => false end.
Proof. unfold bytes_format_level. rewrite first_some_four. reflexivity. Qed.

Lemma digit_of_range (c d : N) : digit_of c = Some d -> d < 10 /\ c = d + 48.
Proof.
  unfold digit_of. destruct ((48 <=? c) && (c <=? 57)) eqn:E; [|discriminate].
  intros H. injection H as <-. apply andb_true_iff in E. destruct E as [E1 E2].
  apply N.leb_le in E1. apply N.leb_le in E2. lia.
Qed.

Lemma digits_val_acc_app (l : list N) : forall acc c,
  digits_val_acc acc (l ++ [c]) =
  match digits_val_acc acc l, digit_of c with
  | Some v, Some d => Some (v * 10 + d)
  | _, _ => None
  end.
Proof.
  induction l as [|x l IH]; intros acc c; cbn [app digits_val_acc].
  - destruct (digit_of c); reflexivity.
  - destruct (digit_of x); [apply IH|reflexivity].
Qed.

Lemma digits_val_app_digit (l : list N) (c : N) :
  digits_val (l ++ [c]) =
  match digits_val l, digit_of c with
  | Some v, Some d => Some (v * 10 + d)
  | _, _ => None
  end.
Proof. apply digits_val_acc_app. Qed.

(** Splitting a number of nanoseconds into whole seconds and the rest; [d]
    stands for [10 ^ 9]. *)
Lemma div_mod_split (t d : N) : d <> 0 -> t mod d < d /\ t / d * d + t mod d = t.
Proof.
  intros Hd. split; [apply N.mod_lt; exact Hd|].
  rewrite N.mul_comm. symmetry. apply N.div_mod. exact Hd.
Qed.

Lemma decimal_nanos_exact (text : list N) (s n : N) :
  decimal_nanos text = Some (s, n) ->
  exists ip fp i f,
    decimal_parts text = Some (ip, fp) /\ digits_val ip = Some i /\ digits_val fp = Some f /\
    N.of_nat (length fp) <= 9 /\
    n < 10 ^ 9 /\
    s * 10 ^ 9 + n = i * 10 ^ 9 + f * 10 ^ (9 - N.of_nat (length fp)).
Proof.
  unfold decimal_nanos. destruct (decimal_parts text) as [[ip fp]|]; [|discriminate].
  destruct (9 <? N.of_nat (length fp)) eqn:E9; [discriminate|].
  destruct (digits_val ip) as [i|] eqn:Ei; [|discriminate].
  destruct (digits_val fp) as [f|] eqn:Ef; [|discriminate].
  intros H. injection H as <- <-.
  exists ip, fp, i, f. split; [reflexivity|]. split; [exact Ei|]. split; [exact Ef|].
  split; [apply N.ltb_ge; exact E9|]. exact (div_mod_split _ _ (pow10_nz 9)).
Qed.

Lemma parse_seconds_sb_model (text : list N) : parse_seconds_sb text (decimal_nanos text) = true \/
  (exists ip fp, decimal_parts text = Some (ip, fp) /\ 9 < N.of_nat (length fp)).
Proof.
  unfold parse_seconds_sb, decimal_nanos.
  destruct (decimal_parts text) as [[ip fp]|]; [|left; reflexivity].
  destruct (9 <? N.of_nat (length fp)) eqn:E9.
  - right. exists ip, fp. split; [reflexivity|]. apply N.ltb_lt. exact E9.
  - left. apply N.ltb_ge in E9.
    destruct (digits_val ip) as [i|]; [|reflexivity].
    destruct (digits_val fp) as [f|]; [|reflexivity].
    generalize dependent (N.of_nat (length fp)). intros k Hk.
    destruct (div_mod_split (i * 10 ^ 9 + f * 10 ^ (9 - k)) (10 ^ 9) (pow10_nz 9)) as [Hlt Hsum].
    apply andb_true_iff. split; [apply N.ltb_lt; exact Hlt|].
    apply N.eqb_eq. rewrite Hsum.
    (* [f * 10^(9-k) * 10^k = f * 10^9] since [k <= 9] *)
    rewrite !N.mul_add_distr_r, <- (N.mul_assoc f), <- N.pow_add_r, (N.sub_add k 9 Hk).
    rewrite <- !N.mul_assoc, (N.mul_comm (10 ^ 9) (10 ^ k)). reflexivity.
Qed.

Example decimal_nanos_examples :
  decimal_nanos [48; 46; 48; 48; 48; 52] = Some (0, 400000)            (* "0.0004" *)
  /\ decimal_nanos [49; 50; 46; 53] = Some (12, 500000000)             (* "12.5" *)
  /\ decimal_nanos [46; 53] = Some (0, 500000000)                      (* ".5" *)
  /\ decimal_nanos [51; 46] = Some (3, 0)                              (* "3." *)
  /\ decimal_nanos [46] = None /\ decimal_nanos [] = None              (* ".", "" *)
  /\ decimal_nanos [45; 49] = None                                     (* "-1" *)
  /\ decimal_nanos [48; 46; 48; 48; 48; 48; 48; 48; 48; 48; 49] = Some (0, 1).   (* "0.000000001" *)
Proof. repeat split; reflexivity. Qed.
