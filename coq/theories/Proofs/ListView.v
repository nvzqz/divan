(** C12: the [--list] view.  Under the guards of FlatBridge.v the leaves painted by [run_action List]
    (ignored or not) are, as a multiset, the flat semantics' [flat_list]: every registered
    entry the filter keeps, under its display path, marked ignored iff the options
    of the groups above it and its own say so. *)
From Coq Require Import Permutation.
From DivanV Require Import Base.Res Model.Registry Model.Tree Model.Driver
  Proofs.TreeBase Proofs.DriverExec Proofs.DriverC14 Proofs.TreeLeaves Proofs.Flat Proofs.FlatBridge Proofs.ListFacts.
Local Open Scope N_scope.

Definition lcase := (N * str)%type.

Definition painted_leaves (l : list action) : list lcase :=
  filter (fun x => negb (fst x =? 0)) (painted l).

Fixpoint listed_node (c : cfg) (pp : str) (po : option opts) (t : tree) : list lcase :=
  let options := merge_opts po (node_opts t) in
  let path := join_path pp (display_name t) in
  match t with
  | Leaf e _ => [(if leaf_ignored c options then 1 else 2, path)]
  | Parent _ _ ch => flat_map (listed_node c path options) ch
  end.
Definition listed_forest c pp po l := flat_map (listed_node c pp po) l.

Lemma painted_leaves_app : forall l1 l2, painted_leaves (l1 ++ l2) = painted_leaves l1 ++ painted_leaves l2.
Proof. intros. unfold painted_leaves, painted. rewrite flat_map_app, filter_app. reflexivity. Qed.

Definition okl (tr : trace) (xs : list lcase) : Prop := snd tr = None /\ painted_leaves (fst tr) = xs.

Lemma okl_tseq : forall a b xs ys, okl a xs -> okl b ys -> okl (tseq a b) (xs ++ ys).
Proof.
  intros a b xs ys [Ha1 Ha2] [Hb1 Hb2]. rewrite (tseq_no_panic a b Ha1). split; [exact Hb1|].
  cbn [fst]. rewrite painted_leaves_app, Ha2, Hb2. reflexivity.
Qed.

Lemma run_forest_list_view : forall c l pp po, okl (run_forest c List pp po l) (listed_forest c pp po l).
Proof.
  intros c. unfold listed_forest.
  induction l as [|e a tl IHtl|r g ch tl IHch IHtl] using forest_ind; intros pp po; cbn [run_forest flat_map].
  - split; reflexivity.
  - apply okl_tseq; [|apply IHtl]. cbn [run_node listed_node]. unfold run_bench_entry. rewrite ignore_same.
    cbn [display_name]. destruct (leaf_ignored c _); split; reflexivity.
  - apply okl_tseq; [|apply IHtl]. rewrite run_node_parent. cbv zeta.
    (* the parent's own two actions paint no leaf *)
    rewrite <- (app_nil_r (listed_node _ _ _ _)). apply (okl_tseq _ _ [] _); [split; reflexivity|].
    apply okl_tseq; [apply IHch|split; reflexivity].
Qed.

Lemma listed_sib_perm : forall c t t' pp po,
  sib_perm t t' -> Permutation (listed_node c pp po t) (listed_node c pp po t').
Proof.
  intros c. induction t as [e args|r g ch IH] using tree_ind_in; intros t' pp po H;
    inversion H as [e0|e0 a0 a' HPa|r0 g0 ch0 ch1 ch2 HF HP]; subst.
  - apply Permutation_refl.
  - apply Permutation_refl.
  - cbn [listed_node display_name node_opts node_meta].
    apply flat_map_forest_perm; [exists ch1; split; assumption|].
    intros x y Hx. apply (IH x Hx).
Qed.

Lemma listed_forest_perm : forall c l l' pp po,
  forest_perm l l' -> Permutation (listed_forest c pp po l) (listed_forest c pp po l').
Proof.
  intros c l l' pp po H. apply flat_map_forest_perm; [exact H|]. intros x y _. apply listed_sib_perm.
Qed.

(** The view of a filtered tree, by the chains of the unfiltered one. *)
Definition lcase_of (c : cfg) (f : str -> bool) (pp : str) (po : option opts) (x : cleaf) : list lcase :=
  let ch := fst (fst x) in
  let e := snd (fst x) in
  let pp' := fold_left (fun p y => join_path p (chain_display y)) ch pp in
  let po' := fold_left (fun o y => merge_opts o (chain_opts y)) ch po in
  let path := join_path pp' (entry_display e) in
  let options := merge_opts po' (m_opts (entry_meta e)) in
  let kept := match snd x with
              | None => f path
              | Some l => negb (is_nil (filter (fun i => f (arg_path path e i)) l))
              end in
  if kept then [(if leaf_ignored c options then 1 else 2, path)] else [].

Lemma lcase_of_prepend : forall c f pp po r g ch x,
  lcase_of c f pp po (cprepend (r, g) x)
  = lcase_of c f (join_path pp (display_name (Parent r g ch))) (merge_opts po (node_opts (Parent r g ch))) x.
Proof. intros. destruct g; reflexivity. Qed.

Lemma listed_retain : forall c f l pp po,
  listed_forest c pp po (flat_map (retain_node f pp) l) = flat_map (lcase_of c f pp po) (flat_map leaves_rel l).
Proof.
  intros c f. unfold listed_forest.
  induction l as [|e a tl IHtl|r g ch tl IHch IHtl] using forest_ind; intros pp po;
    [reflexivity|cbn [flat_map]; rewrite !flat_map_app, IHtl; f_equal..].
  - cbn [retain_node leaves_rel flat_map]. rewrite app_nil_r. unfold lcase_of. cbn [fst snd fold_left display_name].
    destruct a as [l|]; [destruct (is_nil (filter _ l))|destruct (f _)]; reflexivity.
  - cbn [retain_node leaves_rel]. rewrite flat_map_map, (flat_map_ext _ _ (lcase_of_prepend c f pp po r g ch)), <- IHch.
    destruct (is_nil (flat_map (retain_node f _) ch)) eqn:En.
    + apply is_nil_spec in En. rewrite En. reflexivity.
    + cbn [flat_map listed_node display_name]. apply app_nil_r.
Qed.

Lemma lcase_of_flat : forall c fm e,
  lcase_of c (c_filter c) [] None (flat_leaf fm e) = flat_list_case c fm e.
Proof.
  intros c fm e. unfold lcase_of, flat_list_case, flat_leaf. cbn [fst snd].
  fold (chain_path (entry_chain fm e)). fold (chain_options (entry_chain fm e)).
  unfold leaf_args. destruct (entry_runner e) as [|o vals]; [reflexivity|].
  rewrite existsb_filter_nil. destruct (filter _ _); reflexivity.
Qed.

Section Sorted.
  Variable srt : list tree -> list tree.
  Hypothesis srt_perm : forall t, forest_perm t (srt t).

  Lemma list_view : forall c benches groups,
    no_name_clash (attach_key benches groups) benches groups -> lookups_agree benches groups ->
    snd (run_action c srt List benches groups) = None /\
    Permutation (painted_leaves (fst (run_action c srt List benches groups))) (flat_list c benches groups).
  Proof.
    intros c benches groups Hg Hl.
    set (t := retain (c_filter c) (build_tree benches groups)).
    assert (Hflat : Permutation (listed_forest c [] None t) (flat_list c benches groups)).
    { unfold t, retain. rewrite listed_retain.
      eapply Permutation_trans; [apply Permutation_flat_map, (leaves_flat _ _ Hg Hl)|].
      rewrite flat_map_map. unfold flat_list. rewrite (flat_map_ext _ _ (lcase_of_flat c _)). apply Permutation_refl. }
    unfold run_action. fold t. destruct (is_nil t) eqn:En.
    - apply is_nil_spec in En. rewrite En in Hflat. split; [reflexivity|exact Hflat].
    - destruct (run_forest_list_view c (srt t) [] None) as [Hp Hx]. split; [exact Hp|]. rewrite Hx.
      eapply Permutation_trans; [apply Permutation_sym; apply listed_forest_perm; apply srt_perm|exact Hflat].
  Qed.
End Sorted.
