(** Runs made of rounds of arbitrary sizes (tuned sample size): every round of
    the model's per-thread log, read back through the global identifiers,
    satisfies the per-sample monitor and the timed-section decomposition, with
    the same counter set in every round. *)

From DivanV Require Import Base.Res Model.Sample Proofs.Sample Proofs.SamplePlace Proofs.SampleTimed Proofs.ListFacts.
Local Open Scope nat_scope.

Lemma localize_gid t base n i : i < n -> localize t base n (gid t base i) = i.
Proof.
  intros Hi. unfold localize, gid. rewrite Nat.add_0_r.
  set (hi := (N.of_nat t * 4294967296)%N).
  assert (H1 : (hi + N.of_nat base <=? hi + N.of_nat (base + i))%N = true) by (apply N.leb_le; lia).
  assert (H2 : (hi + N.of_nat (base + i) <? hi + N.of_nat base + N.of_nat n)%N = true) by (apply N.ltb_lt; lia).
  rewrite H1, H2. cbn [andb]. lia.
Qed.

Lemma map_ev_roundtrip t base n (e : oev nat) :
  ids_all (fun i => i < n) e ->
  map_ev (localize t base n) (localize t base n) (map_ev (gid t base) (gid t base) e) = e.
Proof.
  intros H. destruct e; cbn in *; try reflexivity; try (rewrite localize_gid by exact H; reflexivity).
  destruct H as [H1 H2]. rewrite !localize_gid by assumption. reflexivity.
Qed.

Lemma map_roundtrip t base n (l : list (oev nat)) :
  ids_below n l ->
  map (map_ev (localize t base n) (localize t base n)) (map (map_ev (gid t base) (gid t base)) l) = l.
Proof.
  induction 1 as [|e l He Hl IH]; cbn; [reflexivity|].
  rewrite map_ev_roundtrip by exact He. rewrite IH. reflexivity.
Qed.

(** [sb_timed] does not look at identifiers: renaming them keeps the shape it asks for. *)
Lemma sb_timed_map {A B} (f g : A -> B) (l : list (oev A)) :
  sb_timed l = true -> sb_timed (map (map_ev f g) l) = true.
Proof.
  intros H. apply sb_timed_meaning in H as (pre & timed & sync & post & -> & Hp & Hc & Ht & Hs & Hq).
  repeat (rewrite map_app; cbn [map map_ev]).
  apply sb_timed_intro;
    try (apply Forall_map; eapply Forall_impl; [|eassumption]; intros []; easy).
  rewrite <- Hc, filter_map_commute, map_length. f_equal. apply filter_ext. intros []; reflexivity.
Qed.

Fixpoint round_logs (c : rcfg) (t : nat) (sizes : list nat) (base : nat) : list (list (oev N)) :=
  match sizes with
  | [] => []
  | n :: rest =>
      map (map_ev (gid t base) (gid t base))
          (obs (run_vis c) (sample_prog (r_entry c) (r_shape c) n (r_cs c) (r_udrop c)))
      :: round_logs c t rest (base + n)
  end.

Lemma thread_log_rounds_concat c t sizes base :
  thread_log_rounds c t sizes base = concat (round_logs c t sizes base).
Proof.
  revert base. induction sizes as [|n rest IH]; intros base; cbn; [reflexivity|]. rewrite IH. reflexivity.
Qed.

(** For every entry point, shape, counter set, thread, and EVERY list of round
    sizes (1, 2, 4, ... of a tuned run or anything else): each round of the
    run, identified by the global ids it carries, passes the per-sample monitor
    configured with the run's one counter set and its own size, and the
    timed-section decomposition. *)
Theorem rounds_discipline c t sizes base :
  sb_samples_sizes c t base sizes (round_logs c t sizes base) = true.
Proof.
  revert base. induction sizes as [|n rest IH]; intros base; cbn; [reflexivity|].
  rewrite map_roundtrip by (apply ids_below_sample).
  unfold run_vis.
  rewrite (sb_sample_model (r_entry c) (r_shape c) n (r_cs c) (r_udrop c)).
  rewrite sb_timed_map by apply sb_timed_model.
  cbn [andb]. apply IH.
Qed.

(** Every round also respects the cell discipline, on a fresh deferred store. *)
Theorem rounds_exec e sh cs u sizes :
  Forall (fun n => exec_ok (sample_prog e sh n cs u) = true) sizes.
Proof.
  apply Forall_forall. intros n _. apply exec_ok_sample.
Qed.
