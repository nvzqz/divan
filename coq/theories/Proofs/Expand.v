(** C12, macro level: what [expand_bench] registers for one [#[divan::bench]]. *)
From DivanV Require Import Base.Res Model.Registry Proofs.ListFacts.
Local Open Scope N_scope.

Lemma number_row_kinds : forall run kinds first, map ge_kind (number_row run first kinds) = kinds.
Proof. intros run. induction kinds as [|k tl IH]; intro first; cbn; [reflexivity|]. rewrite IH. reflexivity. Qed.

Lemma number_rows_kinds : forall run rows first, map (map ge_kind) (number_rows run first rows) = rows.
Proof.
  intros run. induction rows as [|r tl IH]; intro first; cbn; [reflexivity|]. rewrite number_row_kinds, IH. reflexivity.
Qed.

Lemma number_row_runner : forall run kinds first e, In e (number_row run first kinds) -> ge_runner e = run.
Proof.
  intros run. induction kinds as [|k tl IH]; intros first e H; cbn in H; [contradiction|].
  destruct H as [H|H]; [subst; reflexivity|apply (IH _ _ H)].
Qed.

Lemma number_row_ids : forall run kinds first,
  map ge_id (number_row run first kinds) = map (fun i => first + N.of_nat i) (seq 0 (length kinds)).
Proof.
  intros run. induction kinds as [|k tl IH]; intro first; cbn [number_row map length seq ge_id]; [reflexivity|].
  rewrite IH. f_equal; [cbn; lia|]. rewrite <- seq_shift, map_map. apply map_ext. intro i. lia.
Qed.

Lemma number_row_length : forall run kinds first, length (number_row run first kinds) = length kinds.
Proof. intros run. induction kinds as [|k tl IH]; intro first; cbn; [reflexivity|]. rewrite IH. reflexivity. Qed.

Lemma number_row_app : forall run k1 k2 first,
  number_row run first (k1 ++ k2) = number_row run first k1 ++ number_row run (first + N.of_nat (length k1)) k2.
Proof.
  intros run. induction k1 as [|k tl IH]; intros k2 first; cbn [number_row app length].
  - rewrite N.add_0_r. reflexivity.
  - rewrite IH. do 3 f_equal. lia.
Qed.

Lemma number_rows_concat : forall run rows first,
  concat (number_rows run first rows) = number_row run first (concat rows).
Proof.
  intros run. induction rows as [|r tl IH]; intro first; cbn [number_rows concat]; [reflexivity|].
  rewrite IH, number_row_app. reflexivity.
Qed.

Lemma number_rows_runner : forall run rows first e, In e (concat (number_rows run first rows)) -> ge_runner e = run.
Proof. intros run rows first e. rewrite number_rows_concat. apply number_row_runner. Qed.

(** The sequence of kinds one benchmark function must produce: one entry per
    type, or per type x const combination (types outer, consts inner). *)
Definition expected_kinds (types : option (list str)) (consts : option (list str)) : list (list gkind) :=
  match consts with
  | None => match types with Some ts => [map GType ts] | None => [] end
  | Some cs => map (fun t => map (GConst t) cs) (types_iter types)
  end.

Lemma product_length : forall (ts : list (option str)) (cs : list str),
  length (concat (map (fun t => map (GConst t) cs) ts)) = (length ts * length cs)%nat.
Proof.
  induction ts as [|t tl IH]; intro cs; cbn; [reflexivity|]. rewrite app_length, map_length, IH. reflexivity.
Qed.

Lemma expected_kinds_count : forall types cs,
  length (concat (expected_kinds types (Some cs))) = (length (types_iter types) * length cs)%nat.
Proof. intros. cbn [expected_kinds]. apply product_length. Qed.

Lemma map_nth_error_seq : forall (cs : list str) (d : str),
  map (fun i => match nth_error cs (if (i <? length cs)%nat then i else O) with Some c => c | None => d end)
      (seq 0 (length cs)) = cs.
Proof.
  intros cs d.
  transitivity (map (fun i => match nth_error cs i with Some c => c | None => d end) (seq 0 (length cs))).
  { apply map_ext_in. intros i Hi. apply in_seq in Hi.
    assert (H : (i <? length cs)%nat = true) by (apply Nat.ltb_lt; lia). rewrite H. reflexivity. }
  induction cs as [|c tl IH]; [reflexivity|]. cbn [length seq map nth_error]. f_equal.
  rewrite <- seq_shift, map_map. cbn [nth_error]. exact IH.
Qed.

Lemma extern_consts_ok : forall cs, (0 < length cs <= max_extern_count)%nat -> extern_consts cs = Ok cs.
Proof.
  intros [|c0 tl] [H1 H2]; [cbn in H1; lia|]. unfold extern_consts.
  assert (E : (max_extern_count <? length (c0 :: tl))%nat = false) by (apply Nat.ltb_ge; exact H2).
  rewrite E. f_equal. rewrite firstn_map_seq by exact H2. apply map_nth_error_seq.
Qed.

Lemma extern_consts_none : extern_consts [] = Panic OutOfBounds.
Proof. reflexivity. Qed.

Lemma extern_consts_too_many : forall cs, (max_extern_count < length cs)%nat -> extern_consts cs = Panic Other.
Proof.
  intros [|c0 tl] H; [cbn in H; lia|]. unfold extern_consts.
  assert (E : (max_extern_count <? length (c0 :: tl))%nat = true) by (apply Nat.ltb_lt; exact H).
  rewrite E. reflexivity.
Qed.

Definition consts_values (c : option consts_spec) : option (list str) :=
  match c with None => None | Some (CLit cs) => Some cs | Some (CExt cs) => Some cs end.

Definition consts_compile (c : option consts_spec) : Prop :=
  match c with Some (CExt cs) => (0 < length cs <= max_extern_count)%nat | _ => True end.

(** Nothing for exclusively empty lists; one [BenchEntry] without generics; one
    [GroupEntry] carrying exactly the types x consts product otherwise. *)
Lemma expand_bench_empty : forall mp n b,
  generic_is_empty (bd_types b) (bd_consts b) = true -> expand_bench mp n b = Ok ([], [], n).
Proof. intros mp n b H. unfold expand_bench. rewrite H. reflexivity. Qed.

Lemma expand_bench_plain : forall mp n b,
  bd_types b = None -> bd_consts b = None ->
  expand_bench mp n b = Ok ([{| b_id := n; b_meta := bench_meta mp b; b_runner := runner_of n (bd_args b) |}], [], n + 1).
Proof. intros mp n b Ht Hc. unfold expand_bench. rewrite Ht, Hc. reflexivity. Qed.

Lemma expand_bench_rows : forall mp n b,
  generic_is_empty (bd_types b) (bd_consts b) = false ->
  (bd_types b <> None \/ bd_consts b <> None) ->
  consts_compile (bd_consts b) ->
  let rows := expected_kinds (bd_types b) (consts_values (bd_consts b)) in
  expand_bench mp n b
  = Ok ([], [{| g_id := n; g_meta := bench_meta mp b;
                g_generic := Some (number_rows (runner_of n (bd_args b)) (n + 1) rows) |}],
        n + 1 + row_count rows).
Proof.
  intros mp n b He Hg Hc. unfold expand_bench. rewrite He.
  destruct (bd_consts b) as [[cs|cs]|]; cbn [consts_values expected_kinds].
  - reflexivity.
  - cbn in Hc. rewrite (extern_consts_ok cs Hc). reflexivity.
  - destruct (bd_types b) as [ts|]; [reflexivity|]. destruct Hg as [Hg|Hg]; congruence.
Qed.

Lemma expand_bench_generic : forall mp n b,
  generic_is_empty (bd_types b) (bd_consts b) = false ->
  (bd_types b <> None \/ bd_consts b <> None) ->
  consts_compile (bd_consts b) ->
  exists rows,
    expand_bench mp n b
    = Ok ([], [{| g_id := n; g_meta := bench_meta mp b; g_generic := Some rows |}], n + 1 + N.of_nat (length (concat rows)))
    /\ map (map ge_kind) rows = expected_kinds (bd_types b) (consts_values (bd_consts b))
    /\ (forall e, In e (concat rows) -> ge_runner e = runner_of n (bd_args b))
    /\ map ge_id (concat rows) = map (fun i => n + 1 + N.of_nat i) (seq 0 (length (concat rows))).
Proof.
  intros mp n b He Hg Hc. rewrite (expand_bench_rows mp n b He Hg Hc). cbv zeta.
  set (rows := expected_kinds _ _). exists (number_rows (runner_of n (bd_args b)) (n + 1) rows).
  rewrite number_rows_concat, number_row_length. unfold row_count.
  split; [reflexivity|]. split; [apply number_rows_kinds|]. split; [apply number_row_runner|apply number_row_ids].
Qed.

Lemma expand_bench_runner : forall mp n b g next rows e,
  expand_bench mp n b = Ok ([], [g], next) -> g_generic g = Some rows -> In e (concat rows) ->
  ge_runner e = runner_of n (bd_args b).
Proof.
  intros mp n b g next rows e H Hg Hin. unfold expand_bench in H.
  destruct (generic_is_empty _ _); [discriminate|]. cbv zeta in H.
  destruct (bd_consts b) as [[cs|cs]|].
  - injection H as <- _. injection Hg as <-. exact (number_rows_runner _ _ _ _ Hin).
  - destruct (extern_consts cs); [|discriminate]. injection H as <- _. injection Hg as <-.
    exact (number_rows_runner _ _ _ _ Hin).
  - destruct (bd_types b) as [ts|]; [|discriminate]. injection H as <- _. injection Hg as <-.
    exact (number_rows_runner _ [map GType ts] _ _ Hin).
Qed.

Lemma expand_bench_extern_limit : forall mp n b cs,
  bd_consts b = Some (CExt cs) -> (max_extern_count < length cs)%nat ->
  expand_bench mp n b = Panic Other.
Proof.
  intros mp n b cs Hc Hl. unfold expand_bench. rewrite Hc.
  assert (He : generic_is_empty (bd_types b) (Some (CExt cs)) = false) by (destruct (bd_types b) as [[|]|]; reflexivity).
  rewrite He, (extern_consts_too_many cs Hl). reflexivity.
Qed.
