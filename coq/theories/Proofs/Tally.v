(** The machine arithmetic of the tally, in range and wrapped, and C10 inside
    the guard: after a guarded sequence [ops] the state is [spec_info ops], the
    record built from the specification functions ([step_exact], the sequence
    extended at its end); what is said of whole runs, of clearing and of the
    boolean specification is read off that.  Thread isolation owes nothing to
    the arithmetic. *)
From DivanV Require Import Base.Res Model.Tally.
From Coq Require Import ZifyBool.
Local Open Scope Z_scope.

Arguments N.add : simpl never.
Arguments N.sub : simpl never.
Arguments N.modulo : simpl never.
Arguments Z.add : simpl never.
Arguments Z.sub : simpl never.
Arguments Z.modulo : simpl never.
Arguments Z.max : simpl never.
Arguments Z.opp : simpl never.

(** The three powers of two stay folded: the proofs use only how they are
    related, except where they meet the literal 2^63 of [no_overflow] and
    [op_bytes_m] ([row_fits], [balance_fits], [realloc_abs], [step_exact]). *)

Lemma two64_two63 : two64 = 2 * two63 /\ 0 < two63 /\ Z.of_N two64N = two64.
Proof. repeat split. Qed.

Lemma add_u64_ok chk a b : (a + b < two64N)%N -> add_u64 chk a b = Ok (a + b)%N.
Proof. intros H. unfold add_u64. apply N.ltb_lt in H. rewrite H. reflexivity. Qed.

Lemma in_i64_range z : in_i64 z = true <-> - two63 <= z < two63.
Proof. unfold in_i64. lia. Qed.

Lemma add_i64_ok chk a b : - two63 <= a + b < two63 -> add_i64 chk a b = Ok (a + b).
Proof. intros H. unfold add_i64. apply in_i64_range in H. rewrite H. reflexivity. Qed.

Lemma sub_i64_ok chk a b : - two63 <= a - b < two63 -> sub_i64 chk a b = Ok (a - b).
Proof. intros H. unfold sub_i64. apply in_i64_range in H. rewrite H. reflexivity. Qed.

Lemma wrap_i64_id z : - two63 <= z < two63 -> wrap_i64 z = z.
Proof.
  intros H. unfold wrap_i64. pose proof two64_two63. rewrite Z.mod_small; lia.
Qed.

Lemma add_u64_false a b : add_u64 false a b = Ok ((a + b) mod two64N)%N.
Proof.
  unfold add_u64. destruct (a + b <? two64N)%N eqn:E; [|reflexivity].
  apply N.ltb_lt in E. rewrite N.mod_small by exact E. reflexivity.
Qed.

Lemma add_i64_false a b : add_i64 false a b = Ok (wrap_i64 (a + b)).
Proof.
  unfold add_i64. destruct (in_i64 (a + b)) eqn:E; [|reflexivity].
  rewrite wrap_i64_id by (apply in_i64_range; exact E). reflexivity.
Qed.

Lemma sub_i64_false a b : sub_i64 false a b = Ok (wrap_i64 (a - b)).
Proof.
  unfold sub_i64. destruct (in_i64 (a - b)) eqn:E; [|reflexivity].
  rewrite wrap_i64_id by (apply in_i64_range; exact E). reflexivity.
Qed.

Lemma wrap_range z : - two63 <= wrap_i64 z < two63.
Proof.
  unfold wrap_i64. pose proof two64_two63. pose proof (Z.mod_pos_bound (z + two63) two64). lia.
Qed.

Lemma wrap_mult z : exists q, wrap_i64 z = z + q * two64.
Proof.
  exists (- ((z + two63) / two64)). unfold wrap_i64.
  rewrite Z.mod_eq by discriminate. ring.
Qed.

Lemma wrap_plus_mult z q : wrap_i64 (z + q * two64) = wrap_i64 z.
Proof.
  unfold wrap_i64. f_equal.
  replace (z + q * two64 + two63) with (z + two63 + q * two64) by ring.
  apply Z_mod_plus_full.
Qed.

Lemma wrap_add_l a b : wrap_i64 (wrap_i64 a + b) = wrap_i64 (a + b).
Proof.
  destruct (wrap_mult a) as [q ->].
  replace (a + q * two64 + b) with (a + b + q * two64) by ring. apply wrap_plus_mult.
Qed.

Lemma wrap_add_r a b : wrap_i64 (a + wrap_i64 b) = wrap_i64 (a + b).
Proof. rewrite Z.add_comm, wrap_add_l, Z.add_comm. reflexivity. Qed.

Lemma wrap_sub_l a b : wrap_i64 (wrap_i64 a - b) = wrap_i64 (a - b).
Proof. apply wrap_add_l. Qed.

Lemma wrap_sub_r a b : wrap_i64 (a - wrap_i64 b) = wrap_i64 (a - b).
Proof.
  destruct (wrap_mult b) as [q ->].
  replace (a - (b + q * two64)) with (a - b + (- q) * two64) by ring. apply wrap_plus_mult.
Qed.

(** [z]: a difference of two usize values. *)
Lemma abs_wrap_i64 z :
  - two64 < z < two64 ->
  Z.abs (wrap_i64 z) = if Z.abs z <=? two63 then Z.abs z else two64 - Z.abs z.
Proof.
  intros H. pose proof two64_two63 as E.
  destruct (Z_lt_le_dec z (- two63)) as [L|L]; [|destruct (Z_lt_le_dec z two63) as [U|U]].
  - rewrite <- (wrap_plus_mult z 1), wrap_i64_id by lia. destruct (_ <=? _) eqn:C; lia.
  - rewrite wrap_i64_id by lia. destruct (_ <=? _) eqn:C; lia.
  - rewrite <- (wrap_plus_mult z (-1)), wrap_i64_id by lia. destruct (_ <=? _) eqn:C; lia.
Qed.

(** [wrapping_abs] as usize is the magnitude, [isize::MIN] included. *)
Lemma abs_as_usize z :
  - two63 <= z < two63 -> i64_as_usize (wrapping_abs_i64 z) = Z.to_N (Z.abs z).
Proof.
  intros H. unfold i64_as_usize, wrapping_abs_i64. destruct (z =? - two63) eqn:E.
  - apply Z.eqb_eq in E. subst z. reflexivity.
  - pose proof two64_two63. rewrite Z.mod_small; lia.
Qed.

Lemma realloc_diff a b :
  (a < two64N)%N ->
  usize_as_i64 (fst (overflowing_sub_u64 b a)) = wrap_i64 (Z.of_N b - Z.of_N a).
Proof.
  intros Ha. unfold overflowing_sub_u64, usize_as_i64. cbn [fst].
  destruct (a <=? b)%N eqn:E.
  - f_equal. lia.
  - rewrite <- (wrap_plus_mult (Z.of_N b - Z.of_N a) 1). f_equal. pose proof two64_two63. lia.
Qed.

Lemma realloc_abs a b :
  (a < two64N)%N -> (b < two64N)%N ->
  i64_as_usize (wrapping_abs_i64 (wrap_i64 (Z.of_N b - Z.of_N a))) = op_bytes_m (ORealloc a b).
Proof.
  intros Ha Hb. rewrite abs_as_usize by apply wrap_range.
  pose proof two64_two63 as E. rewrite abs_wrap_i64 by lia.
  cbn [op_bytes_m]. set (d := if (b <? a)%N then _ else _).
  assert (Hd : Z.abs (Z.of_N b - Z.of_N a) = Z.of_N d) by (unfold d; destruct (b <? a)%N eqn:C; lia).
  rewrite Hd. clearbody d. clear Hd Ha Hb.
  change 9223372036854775808%N with (Z.to_N two63).
  destruct (Z.of_N d <=? two63) eqn:C.
  - replace (d <=? _)%N with true by lia. apply N2Z.id.
  - replace (d <=? _)%N with false by lia. lia.
Qed.

Lemma op_bytes_m_small o : realloc_small o = true -> op_bytes_m o = op_bytes o.
Proof.
  destruct o as [s|s|a b]; try reflexivity. cbn [realloc_small op_bytes_m op_bytes]. intros H. rewrite H.
  reflexivity.
Qed.

Lemma equal_size_realloc_is_zero_byte_grow a :
  kind_of (ORealloc a a) = KGrow /\ op_bytes (ORealloc a a) = 0%N.
Proof. cbn [kind_of op_bytes]. rewrite N.ltb_irrefl. split; [reflexivity|lia]. Qed.

Lemma spec_count_meaning k ops :
  spec_count k ops = N.of_nat (length (filter (fun o => opk_eqb (kind_of o) k) ops)).
Proof. reflexivity. Qed.

Lemma spec_bytes_meaning k ops :
  spec_bytes k ops = sumN (map op_bytes (filter (fun o => opk_eqb (kind_of o) k) ops)).
Proof. reflexivity. Qed.

Lemma row_meaning k ops :
  spec_count k ops = N.of_nat (length (filter (fun o => opk_eqb (kind_of o) k) ops)) /\
  spec_bytes k ops = sumN (map op_bytes (filter (fun o => opk_eqb (kind_of o) k) ops)).
Proof. split; [apply spec_count_meaning|apply spec_bytes_meaning]. Qed.

Lemma op_bytes_realloc a b :
  Z.of_N (op_bytes (ORealloc a b)) = Z.abs (Z.of_N b - Z.of_N a).
Proof. cbn [op_bytes]. destruct (b <? a)%N eqn:E; lia. Qed.

Lemma sumN_app l1 l2 : sumN (l1 ++ l2) = (sumN l1 + sumN l2)%N.
Proof. unfold sumN. induction l1 as [|x l1 IH]; cbn [app fold_right]; lia. Qed.

Lemma sumZ_app l1 l2 : sumZ (l1 ++ l2) = sumZ l1 + sumZ l2.
Proof. unfold sumZ. induction l1 as [|x l1 IH]; cbn [app fold_right]; lia. Qed.

Lemma ops_of_kind_snoc k pre o :
  ops_of_kind k (pre ++ [o]) = ops_of_kind k pre ++ (if opk_eqb (kind_of o) k then [o] else []).
Proof. unfold ops_of_kind. rewrite filter_app. reflexivity. Qed.

Lemma spec_count_snoc k pre o :
  spec_count k (pre ++ [o]) = (spec_count k pre + if opk_eqb (kind_of o) k then 1 else 0)%N.
Proof.
  unfold spec_count. rewrite ops_of_kind_snoc, app_length.
  destruct (opk_eqb (kind_of o) k); cbn [length]; lia.
Qed.

(** For [op_bytes] and for [op_bytes_m] alike. *)
Lemma sum_of_kind_snoc (f : aop -> N) k pre o :
  sumN (map f (ops_of_kind k (pre ++ [o])))
  = (sumN (map f (ops_of_kind k pre)) + if opk_eqb (kind_of o) k then f o else 0)%N.
Proof.
  rewrite ops_of_kind_snoc, map_app, sumN_app.
  destruct (opk_eqb (kind_of o) k); unfold sumN; cbn [map fold_right]; lia.
Qed.

Lemma sumZ_map_snoc (d : aop -> Z) pre o : sumZ (map d (pre ++ [o])) = sumZ (map d pre) + d o.
Proof. rewrite map_app, sumZ_app. unfold sumZ at 2. cbn [map fold_right]. lia. Qed.

Lemma live_count_snoc pre o : live_count (pre ++ [o]) = live_count pre + delta_count o.
Proof. apply sumZ_map_snoc. Qed.

Lemma live_size_snoc pre o : live_size (pre ++ [o]) = live_size pre + delta_size o.
Proof. apply sumZ_map_snoc. Qed.

Lemma peak_snoc d pre o :
  peak d (pre ++ [o]) = Z.max (peak d pre) (sumZ (map d pre) + d o).
Proof.
  induction pre as [|x pre IH].
  - cbn [app peak map]. unfold sumZ. cbn [fold_right]. lia.
  - cbn [app peak map]. rewrite IH. unfold sumZ. cbn [fold_right]. fold (sumZ (map d pre)). lia.
Qed.

Lemma peak_spec d ops :
  (forall n, sumZ (map d (firstn n ops)) <= peak d ops) /\
  (exists n, (n <= length ops)%nat /\ sumZ (map d (firstn n ops)) = peak d ops).
Proof.
  induction ops as [|o ops [IHle [m [Hm IHeq]]]].
  - split.
    + intros n. rewrite firstn_nil. cbn. lia.
    + exists 0%nat. split; [lia|reflexivity].
  - split.
    + intros [|n]; cbn [firstn map peak]; unfold sumZ; cbn [fold_right].
      * lia.
      * specialize (IHle n). unfold sumZ in IHle. lia.
    + cbn [peak]. destruct (Z.max_spec 0 (d o + peak d ops)) as [[Hlt Heq]|[Hge Heq]].
      * exists (S m). split; [cbn [length]; lia|].
        cbn [firstn map]. unfold sumZ in *. cbn [fold_right]. lia.
      * exists 0%nat. split; [lia|]. cbn [firstn map]. unfold sumZ. cbn [fold_right]. lia.
Qed.

Lemma sum_le_peak d ops : sumZ (map d ops) <= peak d ops.
Proof. pose proof (proj1 (peak_spec d ops) (length ops)) as H. rewrite firstn_all in H. exact H. Qed.

Lemma peak_snoc_le d pre o : d o <= 0 -> peak d (pre ++ [o]) = peak d pre.
Proof. intros H. rewrite peak_snoc. pose proof (sum_le_peak d pre). lia. Qed.

Lemma total_weight_snoc pre o : total_weight (pre ++ [o]) = (total_weight pre + op_weight o)%N.
Proof. unfold total_weight. rewrite map_app, sumN_app. unfold sumN at 2. cbn [map fold_right]. lia. Qed.

Lemma spec_count_bytes_le k ops : (spec_count k ops + spec_bytes k ops <= total_weight ops)%N.
Proof.
  induction ops as [|o ops IH] using rev_ind; [cbn; lia|].
  unfold spec_bytes in *. rewrite spec_count_snoc, sum_of_kind_snoc, total_weight_snoc.
  unfold op_weight. destruct (opk_eqb (kind_of o) k); lia.
Qed.

Lemma delta_count_abs o : Z.abs (delta_count o) <= Z.of_N (op_weight o).
Proof. unfold op_weight. destruct o; cbn [delta_count]; lia. Qed.

Lemma delta_size_abs o : Z.abs (delta_size o) <= Z.of_N (op_weight o).
Proof.
  unfold op_weight. destruct o as [s|s|a b]; cbn [delta_size op_bytes]; try lia.
  destruct (b <? a)%N eqn:E; lia.
Qed.

Lemma sum_abs_le (d : aop -> Z) ops :
  (forall o, Z.abs (d o) <= Z.of_N (op_weight o)) ->
  Z.abs (sumZ (map d ops)) <= Z.of_N (total_weight ops).
Proof.
  intros Hd. induction ops as [|o ops IH].
  - cbn. lia.
  - unfold total_weight, sumN, sumZ in *. cbn [map fold_right]. specialize (Hd o). lia.
Qed.

Lemma opk_eqb_eq a b : opk_eqb a b = true <-> a = b.
Proof. destruct a, b; split; intros H; try reflexivity; discriminate H. Qed.

(** [set_tally] with the row left a variable: every field still computes. *)
Lemma set_tally_eq i k t :
  set_tally i k t =
  mkI (if opk_eqb k KGrow then t else i_grow i) (if opk_eqb k KShrink then t else i_shrink i)
      (if opk_eqb k KAlloc then t else i_alloc i) (if opk_eqb k KDealloc then t else i_dealloc i)
      (i_cur_count i) (i_max_count i) (i_cur_size i) (i_max_size i).
Proof. destruct k; reflexivity. Qed.

Lemma tally_op_ok chk i k s :
  (t_count (get_tally i k) + 1 < two64N)%N -> (t_size (get_tally i k) + s < two64N)%N ->
  tally_op chk i k s = Ok (set_tally i k (mkT (t_count (get_tally i k) + 1) (t_size (get_tally i k) + s))).
Proof. intros H1 H2. unfold tally_op. rewrite !add_u64_ok by assumption. reflexivity. Qed.

Lemma tally_op_false i k s :
  tally_op false i k s =
  Ok (set_tally i k (mkT ((t_count (get_tally i k) + 1) mod two64N)%N ((t_size (get_tally i k) + s) mod two64N)%N)).
Proof. unfold tally_op. rewrite !add_u64_false. reflexivity. Qed.

Lemma tally_realloc_eq chk i a b :
  (a < two64N)%N -> (b < two64N)%N ->
  tally_realloc chk i a b =
  (do i1 <- tally_op chk i (kind_of (ORealloc a b)) (op_bytes_m (ORealloc a b));
   do cs <- add_i64 chk (i_cur_size i1) (wrap_i64 (Z.of_N b - Z.of_N a));
   Ok (set_sizes i1 cs (Z.max (i_max_size i1) cs))).
Proof. intros Ha Hb. rewrite <- realloc_abs, <- realloc_diff by assumption. reflexivity. Qed.

Lemma step_release i o : exists i', step false i o = Ok i'.
Proof.
  destruct o as [s|s|a b]; cbn [step].
  - unfold tally_alloc. rewrite tally_op_false. cbn [bind]. rewrite add_i64_false. cbn [bind].
    rewrite add_i64_false. eexists; reflexivity.
  - unfold tally_dealloc. rewrite tally_op_false. cbn [bind]. rewrite sub_i64_false. cbn [bind].
    rewrite sub_i64_false. eexists; reflexivity.
  - unfold tally_realloc. destruct (overflowing_sub_u64 b a). rewrite tally_op_false. cbn [bind].
    rewrite add_i64_false. eexists; reflexivity.
Qed.

Lemma run_from_release ops : forall i, exists i', run_from false i ops = Ok i'.
Proof.
  induction ops as [|o ops IH]; intros i; [exists i; reflexivity|].
  cbn [run_from]. destruct (step_release i o) as [i1 ->]. apply IH.
Qed.

Definition spec_tally (k : opk) (ops : list aop) : tally := mkT (spec_count k ops) (spec_bytes k ops).

Definition spec_info (ops : list aop) : info :=
  mkI (spec_tally KGrow ops) (spec_tally KShrink ops) (spec_tally KAlloc ops) (spec_tally KDealloc ops)
      (live_count ops) (peak delta_count ops) (live_size ops) (peak delta_size ops).

Lemma spec_tally_snoc k pre o :
  spec_tally k (pre ++ [o]) =
  if opk_eqb (kind_of o) k then mkT (spec_count k pre + 1) (spec_bytes k pre + op_bytes o) else spec_tally k pre.
Proof.
  unfold spec_tally, spec_bytes. rewrite spec_count_snoc, sum_of_kind_snoc.
  destruct (opk_eqb (kind_of o) k); [reflexivity|]. rewrite !N.add_0_r. reflexivity.
Qed.

(** What the guard buys.  With the weight [W] of the operations so far and the
    weight [w] of the next one below 2^63 together: a row takes one more
    operation without leaving u64, a balance and the operand itself stay in i64. *)
Lemma row_fits W c z s :
  (c + z <= W)%N -> (W + (1 + s) < 9223372036854775808)%N -> (c + 1 < two64N)%N /\ (z + s < two64N)%N.
Proof. unfold two64N. lia. Qed.

Lemma balance_fits W w x d :
  Z.abs x <= Z.of_N W -> Z.abs d <= Z.of_N w -> (W + w < 9223372036854775808)%N ->
  - two63 <= x + d < two63 /\ - two63 < d < two63.
Proof. unfold two63. lia. Qed.

Lemma step_exact chk pre o :
  no_overflow (pre ++ [o]) = true -> step chk (spec_info pre) o = Ok (spec_info (pre ++ [o])).
Proof.
  unfold no_overflow. rewrite forallb_app, total_weight_snoc. cbn [forallb].
  intros [[_ [Hwf _]%andb_prop]%andb_prop Hw%N.ltb_lt]%andb_prop.
  pose proof (fun k => row_fits _ _ _ (op_bytes o) (spec_count_bytes_le k pre) Hw) as Hrow.
  destruct (balance_fits _ _ _ _ (sum_abs_le delta_count pre delta_count_abs) (delta_count_abs o) Hw) as [Hcc _].
  destruct (balance_fits _ _ _ _ (sum_abs_le delta_size pre delta_size_abs) (delta_size_abs o) Hw) as [Hcs Hd].
  pose proof two64_two63 as E.
  unfold spec_info at 2. rewrite !spec_tally_snoc, live_count_snoc, live_size_snoc.
  destruct o as [s|s|a b]; cbn [step kind_of opk_eqb delta_count delta_size] in *.
  - unfold tally_alloc. rewrite tally_op_ok by apply Hrow. cbn.
    rewrite add_i64_ok by exact Hcc. cbn.
    unfold usize_as_i64. rewrite wrap_i64_id by lia. rewrite add_i64_ok by exact Hcs.
    rewrite !peak_snoc. reflexivity.
  - unfold tally_dealloc. rewrite tally_op_ok by apply Hrow. cbn.
    rewrite sub_i64_ok by exact Hcc. cbn.
    unfold usize_as_i64. rewrite wrap_i64_id by lia. rewrite sub_i64_ok by exact Hcs.
    rewrite !peak_snoc_le by (cbn; lia). reflexivity.
  - apply andb_prop in Hwf. destruct Hwf as [Ha Hb]. apply N.ltb_lt in Ha, Hb.
    rewrite tally_realloc_eq by assumption.
    rewrite op_bytes_m_small by (cbn [realloc_small]; unfold two63 in Hd; destruct (b <? a)%N eqn:C; lia).
    cbn [kind_of]. rewrite wrap_i64_id by lia. rewrite Z.add_0_r, (peak_snoc_le delta_count) by reflexivity.
    destruct (b <? a)%N; rewrite tally_op_ok by apply Hrow; cbn;
      rewrite add_i64_ok by exact Hcs; rewrite peak_snoc; reflexivity.
Qed.

Lemma no_overflow_app a b :
  no_overflow (a ++ b) = true -> no_overflow a = true /\ no_overflow b = true.
Proof.
  unfold no_overflow, total_weight. rewrite forallb_app, map_app, sumN_app.
  intros [[Ha Hb]%andb_prop Hw]%andb_prop. rewrite Ha, Hb. cbn [andb]. lia.
Qed.

Lemma run_from_exact chk ops : forall pre,
  no_overflow (pre ++ ops) = true ->
  run_from chk (spec_info pre) ops = Ok (spec_info (pre ++ ops)).
Proof.
  induction ops as [|o ops IH]; intros pre H.
  - rewrite app_nil_r. reflexivity.
  - change (pre ++ o :: ops) with (pre ++ [o] ++ ops) in *. rewrite app_assoc in *.
    cbn [run_from]. rewrite step_exact by apply (no_overflow_app _ _ H). cbn [bind]. apply IH, H.
Qed.

Lemma run_exact chk ops : no_overflow ops = true -> run chk ops = Ok (spec_info ops).
Proof. apply (run_from_exact chk ops []). Qed.

Lemma run_build_independent ops :
  no_overflow ops = true -> run true ops = run false ops /\ is_ok (run true ops) = true.
Proof. intros H. rewrite !run_exact by exact H. split; reflexivity. Qed.

Theorem tally_exact chk ops :
  no_overflow ops = true ->
  exists i, run chk ops = Ok i /\
    (forall k, get_tally i k = mkT (spec_count k ops) (spec_bytes k ops)) /\
    i_cur_count i = live_count ops /\ i_cur_size i = live_size ops.
Proof.
  intros H. exists (spec_info ops). split; [apply run_exact; exact H|].
  split; [intros []; reflexivity|split; reflexivity].
Qed.

Theorem max_is_peak chk ops :
  no_overflow ops = true ->
  exists i, run chk ops = Ok i /\
    (forall n, live_count (firstn n ops) <= i_max_count i) /\
    (exists n, (n <= length ops)%nat /\ live_count (firstn n ops) = i_max_count i) /\
    (forall n, live_size (firstn n ops) <= i_max_size i) /\
    (exists n, (n <= length ops)%nat /\ live_size (firstn n ops) = i_max_size i).
Proof.
  intros H. exists (spec_info ops). split; [apply run_exact; exact H|].
  destruct (peak_spec delta_count ops) as [A B]. destruct (peak_spec delta_size ops) as [C D].
  repeat split; assumption.
Qed.

(** The shape of every guarded boolean specification. *)
Lemma guarded_true_iff (g b : bool) (P : Prop) :
  (g = true -> (b = true <-> P)) -> ((if g then b else true) = true <-> (g = true -> P)).
Proof.
  destruct g; intros H.
  - rewrite (H eq_refl). split; [intros p _; exact p|intros p; exact (p eq_refl)].
  - split; [intros _ E; discriminate E|reflexivity].
Qed.

Lemma tally_eqb_spec t c s : tally_eqb t c s = true <-> t = mkT c s.
Proof.
  destruct t as [c' s']. unfold tally_eqb. cbn [t_count t_size]. split.
  - intros [->%N.eqb_eq ->%N.eqb_eq]%andb_prop. reflexivity.
  - intros E. injection E as -> ->. rewrite !N.eqb_refl. reflexivity.
Qed.

Lemma tally_clauses_spec ops i : forallb fst (tally_sb_clauses ops i) = true <-> i = spec_info ops.
Proof.
  split.
  - destruct i. cbn. intros [->%tally_eqb_spec [->%tally_eqb_spec [->%tally_eqb_spec [->%tally_eqb_spec
      [->%Z.eqb_eq [->%Z.eqb_eq [->%Z.eqb_eq [->%Z.eqb_eq _]%andb_prop]%andb_prop]%andb_prop]%andb_prop
      ]%andb_prop]%andb_prop]%andb_prop]%andb_prop. reflexivity.
  - intros ->. cbn. unfold spec_tally. rewrite !(proj2 (tally_eqb_spec _ _ _) eq_refl), !Z.eqb_refl. reflexivity.
Qed.

Theorem tally_sb_meaning ops i :
  tally_sb ops (Ok i) = true <-> (no_overflow ops = true -> i = spec_info ops).
Proof. unfold tally_sb. apply guarded_true_iff. intros _. apply tally_clauses_spec. Qed.

Theorem tally_sb_no_panic ops p : no_overflow ops = true -> tally_sb ops (Panic p) = false.
Proof. intros H. unfold tally_sb. rewrite H. reflexivity. Qed.

Theorem tally_model_sb chk ops : tally_sb ops (run chk ops) = true.
Proof.
  destruct (no_overflow ops) eqn:H.
  - rewrite run_exact by exact H. apply tally_sb_meaning. reflexivity.
  - unfold tally_sb. rewrite H. reflexivity.
Qed.

Lemma tmap_step_other chk m t e t' : t' <> t -> tmap_step chk m (t, e) t' = m t'.
Proof. intros H. unfold tmap_step. apply N.eqb_neq in H. cbn [fst]. rewrite H. reflexivity. Qed.

Lemma tmap_fold_proj chk g : forall m t,
  fold_left (tmap_step chk) g m t = fold_left (ev_step chk) (proj t g) (m t).
Proof.
  induction g as [|[u e] g IH]; intros m t; [reflexivity|].
  cbn [fold_left]. rewrite IH. unfold proj, tmap_step. cbn [filter fst snd]. rewrite (N.eqb_sym t u).
  destruct (u =? t)%N eqn:E; [|reflexivity].
  apply N.eqb_eq in E. subst u. reflexivity.
Qed.

(** Whatever the interleaving, thread [t]'s tally is the one its own events
    produce. *)
Theorem thread_isolated chk g t : tmap_run chk g t = run_ev chk (proj t g).
Proof. apply tmap_fold_proj. Qed.

Corollary thread_isolated_interleavings chk g1 g2 t :
  proj t g1 = proj t g2 -> tmap_run chk g1 t = tmap_run chk g2 t.
Proof. intros H. rewrite !thread_isolated, H. reflexivity. Qed.

Lemma thread_isolated_full chk g t :
  (forall m e t', t' <> t -> tmap_step chk m (t, e) t' = m t') /\
  tmap_run chk g t = run_ev chk (proj t g).
Proof. split; [intros m e t'; apply tmap_step_other|apply thread_isolated]. Qed.

Lemma fold_ev_panic chk evs p : fold_left (ev_step chk) evs (Panic p) = Panic p.
Proof. induction evs as [|e evs IH]; [reflexivity|exact IH]. Qed.

Lemma run_from_app chk a : forall i b,
  run_from chk i (a ++ b) = (do i' <- run_from chk i a; run_from chk i' b).
Proof.
  induction a as [|o a IH]; intros i b; [reflexivity|].
  cbn [app run_from]. destruct (step chk i o) as [i'|p]; [apply IH|reflexivity].
Qed.

Lemma run_snoc chk ops o : run chk (ops ++ [o]) = (do i <- run chk ops; step chk i o).
Proof.
  unfold run. rewrite run_from_app. destruct (run_from chk info_init ops) as [i|p]; [|reflexivity].
  cbn [bind run_from]. destruct (step chk i o); reflexivity.
Qed.

Lemma run_ev_since_clear_gen chk evs : forall acc i,
  fold_left (ev_step chk) evs (run chk (rev acc)) = Ok i ->
  run chk (since_clear evs acc) = Ok i.
Proof.
  induction evs as [|[o|] evs IH]; intros acc i H; [exact H| |];
    cbn [fold_left since_clear] in *; apply IH; cbn [rev].
  - rewrite run_snoc. exact H.
  - destruct (run chk (rev acc)) as [j|p]; [exact H|].
    cbn [ev_step bind] in H. rewrite fold_ev_panic in H. discriminate H.
Qed.

(** A tally that can be read at all describes exactly the operations since
    the last clear. *)
Theorem clear_resets chk evs i :
  run_ev chk evs = Ok i -> run chk (ops_since_clear evs) = Ok i.
Proof. apply (run_ev_since_clear_gen chk evs []). Qed.

Lemma all_ops_cons e evs :
  all_ops (e :: evs) = match e with EOp o => o :: all_ops evs | EClear => all_ops evs end.
Proof. destruct e; reflexivity. Qed.

Lemma run_ev_exact_gen chk evs : forall acc,
  no_overflow (rev acc ++ all_ops evs) = true ->
  fold_left (ev_step chk) evs (Ok (spec_info (rev acc))) = Ok (spec_info (since_clear evs acc)).
Proof.
  induction evs as [|[o|] evs IH]; intros acc H; [reflexivity| |];
    rewrite all_ops_cons in H; cbn [fold_left since_clear ev_step bind].
  - change (o :: all_ops evs) with ([o] ++ all_ops evs) in H. rewrite app_assoc in H.
    rewrite step_exact by apply (no_overflow_app _ _ H). apply (IH (o :: acc)), H.
  - apply (IH []), (no_overflow_app _ _ H).
Qed.

Theorem run_ev_exact chk evs :
  no_overflow (all_ops evs) = true -> run_ev chk evs = Ok (spec_info (ops_since_clear evs)).
Proof. apply (run_ev_exact_gen chk evs []). Qed.

Lemma since_clear_sub evs : forall acc,
  no_overflow (rev acc ++ all_ops evs) = true -> no_overflow (since_clear evs acc) = true.
Proof.
  induction evs as [|[o|] evs IH]; intros acc H; rewrite ?all_ops_cons in H; cbn [since_clear].
  - rewrite app_nil_r in H. exact H.
  - apply IH. cbn [rev]. rewrite <- app_assoc. exact H.
  - apply (IH []), (no_overflow_app _ _ H).
Qed.

Theorem ev_model_sb chk evs : ev_sb evs (run_ev chk evs) = true.
Proof.
  unfold ev_sb. destruct (no_overflow (all_ops evs)) eqn:H; [|reflexivity].
  rewrite run_ev_exact by exact H. apply tally_sb_meaning. reflexivity.
Qed.

Theorem ev_sb_meaning evs i :
  ev_sb evs (Ok i) = true <->
  (no_overflow (all_ops evs) = true -> i = spec_info (ops_since_clear evs)).
Proof.
  unfold ev_sb. apply guarded_true_iff. intros H. rewrite tally_sb_meaning.
  split; [intros A; apply A, (since_clear_sub evs []), H|intros A _; exact A].
Qed.

Example guard_satisfiable :
  no_overflow [OAlloc 1099511627776; ORealloc 1099511627776 0; ORealloc 0 0; ODealloc 0; ODealloc 7; OAlloc 3] = true.
Proof. vm_compute. reflexivity. Qed.

Example guard_example_run :
  run true [OAlloc 1099511627776; ORealloc 1099511627776 0; ORealloc 0 0; ODealloc 0; ODealloc 7; OAlloc 3]
  = Ok (mkI (mkT 1 0) (mkT 1 1099511627776) (mkT 2 1099511627779) (mkT 2 7) 0 1 (-4) 1099511627776).
Proof. vm_compute. reflexivity. Qed.

(** Outside the guard the builds really differ (so the guard is not vacuous). *)
Example overflow_debug_panics : run true [OAlloc 9223372036854775807; OAlloc 1] = Panic Overflow.
Proof. vm_compute. reflexivity. Qed.

Example overflow_release_wraps :
  run false [OAlloc 9223372036854775807; OAlloc 1]
  = Ok (mkI tally_zero tally_zero (mkT 2 9223372036854775808) tally_zero 2 2 (-9223372036854775808) 9223372036854775807).
Proof. vm_compute. reflexivity. Qed.
