From DivanV Require Import Base.Res Generated.Consts Model.Timestamp.
From Coq Require Import ZifyBool.
Local Open Scope N_scope.

Lemma div_floor_iff x f v : f <> 0 -> (v * f <= x /\ x < (v + 1) * f <-> v = x / f).
Proof.
  intros Hf. rewrite N.add_1_r, !(N.mul_comm _ f). split.
  - intros [Hlo Hhi]. rewrite N.mul_succ_r in Hhi.
    apply (N.div_unique x f v (x - f * v)); lia.
  - intros ->. split; [apply N.mul_div_le | apply N.mul_succ_div_gt]; exact Hf.
Qed.

Lemma div_add_bounds x y f :
  f <> 0 -> x / f + y / f <= (x + y) / f /\ (x + y) / f <= x / f + y / f + 1.
Proof.
  intros Hf.
  pose proof (N.mul_div_le x f Hf) as Lx. pose proof (N.mul_succ_div_gt x f Hf) as Ux.
  pose proof (N.mul_div_le y f Hf) as Ly. pose proof (N.mul_succ_div_gt y f Hf) as Uy.
  rewrite N.mul_succ_r in Ux, Uy. split.
  - apply N.div_le_lower_bound; [exact Hf|]. rewrite N.mul_add_distr_l. lia.
  - apply N.lt_succ_r, N.div_lt_upper_bound; [exact Hf|].
    rewrite N.mul_succ_r, !N.mul_add_distr_l, N.mul_1_r. lia.
Qed.

Lemma div_le_self x f : f <> 0 -> x / f <= x.
Proof.
  intros Hf. apply N.div_le_upper_bound; [exact Hf|].
  rewrite <- (N.mul_1_l x) at 1. apply N.mul_le_mono_r. lia.
Qed.

Definition tsc_spec (later earlier freq : N) : N :=
  if later <? earlier then 0 else ((later - earlier) * 1000000000000) / freq.

Lemma tsc_spec_forwards a b f : a <= b -> tsc_spec b a f = (b - a) * 1000000000000 / f.
Proof. intros H. unfold tsc_spec. apply N.ltb_ge in H. rewrite H. reflexivity. Qed.

(** The widened product fits: both factors are below 2^64. *)
Lemma tsc_no_overflow a b : b < 2 ^ 64 -> (b - a) * tsc_picos_const < 2 ^ 128.
Proof.
  intros Hb. change (2 ^ 128) with (2 ^ 64 * 2 ^ 64). apply N.mul_lt_mono; [|reflexivity].
  apply N.le_lt_trans with b; [apply N.le_sub_l|exact Hb].
Qed.

Lemma tsc_duration_exact a b f :
  f <> 0 -> b < 2 ^ 64 -> tsc_duration b a f = Ok (tsc_spec b a f).
Proof.
  intros Hf Hb. unfold tsc_duration, tsc_spec. destruct (b <? a); [reflexivity|].
  unfold checked_mul, checked_div. pose proof (tsc_no_overflow a b Hb) as Hov.
  apply N.ltb_lt in Hov. apply N.eqb_neq in Hf. rewrite Hov, Hf. reflexivity.
Qed.

Lemma tsc_exact a b f :
  f <> 0 -> a < 2 ^ 64 -> b < 2 ^ 64 ->
  tsc_duration b a f = Ok (tsc_spec b a f) /\ (b - a) * tsc_picos_const < 2 ^ 128.
Proof. intros Hf _ Hb. split; [apply tsc_duration_exact|apply tsc_no_overflow]; assumption. Qed.

Lemma tsc_backwards a b f : b < a -> tsc_duration b a f = Ok 0.
Proof. intros H. unfold tsc_duration. apply N.ltb_lt in H. rewrite H. reflexivity. Qed.

Example tsc_example : tsc_duration (2 ^ 64 - 1) 0 1 = Ok ((2 ^ 64 - 1) * 1000000000000).
Proof. vm_compute. reflexivity. Qed.

Lemma tsc_monotone a b b' f :
  f <> 0 -> b <= b' -> tsc_spec b a f <= tsc_spec b' a f.
Proof.
  intros Hf Hb. unfold tsc_spec. destruct (b <? a) eqn:H1; [apply N.le_0_l|].
  apply N.ltb_ge in H1. replace (b' <? a) with false by lia.
  apply N.div_le_mono; [exact Hf|]. apply N.mul_le_mono_r. lia.
Qed.

(** Additive up to one picosecond of rounding. *)
Lemma tsc_additive a b c f :
  f <> 0 -> a <= b -> b <= c ->
  tsc_spec b a f + tsc_spec c b f <= tsc_spec c a f /\
  tsc_spec c a f <= tsc_spec b a f + tsc_spec c b f + 1.
Proof.
  intros Hf Hab Hbc. rewrite !tsc_spec_forwards by lia.
  replace (c - a) with ((b - a) + (c - b)) by lia. rewrite N.mul_add_distr_r.
  apply div_add_bounds, Hf.
Qed.

Lemma tsc_spec_shift a b k f : tsc_spec (b + k) (a + k) f = tsc_spec b a f.
Proof.
  unfold tsc_spec. destruct (b <? a) eqn:E.
  - replace (b + k <? a + k) with true by lia. reflexivity.
  - replace (b + k <? a + k) with false by lia. replace (b + k - (a + k)) with (b - a) by lia. reflexivity.
Qed.

Lemma tsc_shift_invariant a b k f :
  a <= b -> tsc_spec (b + k) (a + k) f = tsc_spec b a f.
Proof. intros _. apply tsc_spec_shift. Qed.

Lemma duration_exact secs nanos :
  secs < 2 ^ 64 -> nanos < 1000000000 ->
  fine_from_duration secs nanos = Ok ((secs * 1000000000 + nanos) * 1000).
Proof.
  intros Hs Hn. unfold fine_from_duration, duration_as_nanos, checked_mul.
  replace (_ <? _) with true by lia. reflexivity.
Qed.

Lemma os_duration_exact later earlier :
  later < 2 ^ 64 * 1000000000 ->
  os_duration_since later earlier = Ok ((later - earlier) * 1000).
Proof.
  intros Hl. unfold os_duration_since. rewrite duration_exact.
  - rewrite (N.mul_comm _ 1000000000), <- N.div_mod by discriminate. reflexivity.
  - apply N.div_lt_upper_bound; [discriminate|]. lia.
  - apply N.mod_lt. discriminate.
Qed.

Lemma os_duration_reversed later earlier :
  later <= earlier -> os_duration_since later earlier = Ok 0.
Proof.
  intros H. unfold os_duration_since. apply N.sub_0_le in H. rewrite H. reflexivity.
Qed.

Lemma osd_model_sb earlier later :
  later < 2 ^ 64 * 1000000000 ->
  osd_sb earlier later (os_duration_since later earlier) = true.
Proof.
  intros Hl. rewrite os_duration_exact by assumption. apply N.eqb_refl.
Qed.

Lemma prec_tick_min s : ps_min (prec_tick s) = ps_min s.
Proof. unfold prec_tick. destruct (_ <? _); reflexivity. Qed.

Lemma prec_tick_seen s : ps_seen (prec_tick s) = ps_seen s.
Proof. unfold prec_tick. destruct (_ <? _); reflexivity. Qed.

(** Once the minimum is [d], [m + 1] further samples [d] bring the count of
    repetitions to the threshold, and the minimum is returned. *)
Lemma prec_run_equal d (Hd : d <> 0) :
  forall (m : nat) s rest,
    ps_min s = d -> ps_seen s + N.of_nat m = 99 ->
    prec_run s (d :: repeat d m ++ rest) = Some d.
Proof.
  apply N.eqb_neq in Hd.
  induction m as [|m IH]; intros s rest Hmin Hseen;
    cbn [prec_run]; unfold prec_step; rewrite Hd, Hmin, N.compare_refl.
  - replace (ps_seen s) with 99 by lia. reflexivity.
  - replace (_ <=? _) with false by (unfold prec_seen_threshold; lia).
    apply IH; [rewrite prec_tick_min|rewrite prec_tick_seen; cbn [ps_seen]; lia]; reflexivity.
Qed.

(** A stream that starts with 101 equal non-zero samples, whatever follows:
    the first becomes the minimum, the next hundred repeat it. *)
Lemma precision_uniform_prefix d rest :
  0 < d -> d < u128_max -> measure_precision (repeat d 101 ++ rest) = Some d.
Proof.
  intros Hpos Hmax. change (repeat d 101) with (d :: d :: repeat d 99).
  unfold measure_precision. cbn [app prec_run]. unfold prec_step at 1.
  replace (d =? 0) with false by lia. apply N.compare_lt_iff in Hmax. cbn [prec_init ps_min]. rewrite Hmax.
  apply (prec_run_equal d ltac:(lia) 99); [rewrite prec_tick_min|rewrite prec_tick_seen]; reflexivity.
Qed.

Lemma precision_uniform d n :
  0 < d -> d < u128_max -> (101 <= n)%nat ->
  measure_precision (repeat d n) = Some d.
Proof.
  intros Hpos Hmax Hn. replace n with (101 + (n - 101))%nat by lia.
  rewrite repeat_app. apply precision_uniform_prefix; assumption.
Qed.

(** In clock terms: a counter advancing [t] ticks between two successive reads
    at frequency [f] produces the sample [tsc_spec t 0 f] each time. *)
Lemma precision_uniform_ticks t f n :
  f <> 0 -> t < 2 ^ 64 -> 0 < tsc_spec t 0 f -> (101 <= n)%nat ->
  measure_precision (repeat (tsc_spec t 0 f) n) = Some (tsc_spec t 0 f).
Proof.
  intros Hf Ht Hpos Hn. apply precision_uniform; [exact Hpos| |exact Hn].
  rewrite tsc_spec_forwards, N.sub_0_r by apply N.le_0_l.
  apply N.le_lt_trans with (t * 1000000000000); [apply div_le_self, Hf|].
  apply N.lt_trans with (2 ^ 64 * 1000000000000); [|reflexivity].
  apply N.mul_lt_mono_pos_r; [reflexivity|exact Ht].
Qed.

Example precision_example :
  measure_precision (repeat 50000 101) = Some 50000 /\ prec_consumed prec_init (repeat 50000 200) 0 = Some 101.
Proof. vm_compute. split; reflexivity. Qed.

Lemma tsc_sb_spec a b f v :
  f <> 0 -> (tsc_sb a b f (Ok v) = true <-> v = tsc_spec b a f).
Proof.
  intros Hf. unfold tsc_sb, tsc_spec. destruct (b <? a).
  - apply N.eqb_eq.
  - rewrite andb_true_iff, N.leb_le, N.ltb_lt. apply div_floor_iff, Hf.
Qed.

Lemma tsc_model_sb a b f :
  f <> 0 -> a < 2 ^ 64 -> b < 2 ^ 64 -> tsc_sb a b f (tsc_duration b a f) = true.
Proof.
  intros Hf _ Hb. rewrite tsc_duration_exact by assumption.
  apply tsc_sb_spec; [assumption|reflexivity].
Qed.

Lemma dur_model_sb secs nanos :
  secs < 2 ^ 64 -> nanos < 1000000000 -> dur_sb secs nanos (fine_from_duration secs nanos) = true.
Proof.
  intros Hs Hn. rewrite duration_exact by assumption. apply N.eqb_refl.
Qed.

Lemma prec_model_sb t f n :
  f <> 0 -> t < 2 ^ 64 -> 0 < tsc_spec t 0 f -> (101 <= n)%nat ->
  prec_sb f t (measure_precision (repeat (tsc_spec t 0 f) n)) = true.
Proof.
  intros Hf Ht Hpos Hn. rewrite precision_uniform_ticks by assumption.
  apply tsc_sb_spec; [assumption|reflexivity].
Qed.

Lemma pc_get_set_same c k v : pc_get (pc_set c k v) k = Some v.
Proof. destruct k; reflexivity. Qed.

Lemma pc_get_set_other c k k' v : tkind_eqb k' k = false -> pc_get (pc_set c k v) k' = pc_get c k'.
Proof. destruct k, k'; cbn; intros H; try discriminate; reflexivity. Qed.

Lemma tkind_eqb_eq a b : tkind_eqb a b = true <-> a = b.
Proof. destruct a, b; cbn; split; intros H; try reflexivity; try discriminate. Qed.

(** What a query of kind [k] reports when the cache is [c] and the queries
    still to come are [qs]: the cached value of its kind if there is one, else
    the first measurement of that kind. *)
Definition reported (c : pcache) (qs : list (tkind * N)) (k : tkind) : option N :=
  match pc_get c k with Some v => Some v | None => first_of_kind k qs end.

Lemma reported_empty qs k : reported pcache_empty qs k = first_of_kind k qs.
Proof. destruct k; reflexivity. Qed.

Lemma prec_queries_cons c q qs :
  prec_queries c (q :: qs) = fst (prec_query c q) :: prec_queries (snd (prec_query c q)) qs.
Proof. cbn [prec_queries]. destruct (prec_query c q). reflexivity. Qed.

Lemma reported_head c k m qs : reported c ((k, m) :: qs) k = Some (fst (prec_query c (k, m))).
Proof.
  unfold reported, prec_query. cbn [first_of_kind].
  destruct (pc_get c k); [reflexivity|]. rewrite (proj2 (tkind_eqb_eq k k) eq_refl). reflexivity.
Qed.

(** Answering a query leaves what every later query reports unchanged,
    whatever queries of the other kind happen in between. *)
Lemma reported_step c k0 m0 qs k :
  reported (snd (prec_query c (k0, m0))) qs k = reported c ((k0, m0) :: qs) k.
Proof.
  unfold reported, prec_query. cbn [first_of_kind]. destruct (tkind_eqb k k0) eqn:Ek.
  - apply tkind_eqb_eq in Ek. subst k0.
    destruct (pc_get c k) eqn:E; cbn [snd]; [rewrite E|rewrite pc_get_set_same]; reflexivity.
  - destruct (pc_get c k0); cbn [snd]; [|rewrite pc_get_set_other by exact Ek]; reflexivity.
Qed.

Lemma prec_queries_nth : forall qs c i k m,
  nth_error qs i = Some (k, m) -> nth_error (prec_queries c qs) i = reported c qs k.
Proof.
  induction qs as [|[k0 m0] qs IH]; intros c [|i] k m Hn; try discriminate Hn;
    rewrite prec_queries_cons; cbn [nth_error] in *.
  - injection Hn as -> ->. symmetry. apply reported_head.
  - rewrite <- reported_step. apply (IH _ i k m Hn).
Qed.

Theorem precision_cached_per_kind : forall qs i k m,
  nth_error qs i = Some (k, m) ->
  nth_error (prec_queries pcache_empty qs) i = first_of_kind k qs.
Proof.
  intros qs i k m Hn. rewrite (prec_queries_nth qs pcache_empty i k m Hn). apply reported_empty.
Qed.

(** Queries of one kind never change what the other kind reports. *)
Theorem precision_kinds_independent : forall qs k,
  first_of_kind k (filter (fun q => tkind_eqb k (fst q)) qs) = first_of_kind k qs.
Proof.
  induction qs as [|[k0 m0] qs IH]; intros k; [reflexivity|].
  cbn [filter fst]. destruct (tkind_eqb k k0) eqn:Ek; cbn [first_of_kind]; rewrite Ek; [reflexivity|apply IH].
Qed.

Lemma prec_queries_length : forall qs c, length (prec_queries c qs) = length qs.
Proof.
  induction qs as [|q qs IH]; intros c; [reflexivity|].
  rewrite prec_queries_cons. cbn [length]. rewrite IH. reflexivity.
Qed.

Lemma prec_queries_in : forall qs c k a,
  In (k, a) (combine (map fst qs) (prec_queries c qs)) -> reported c qs k = Some a.
Proof.
  induction qs as [|[k0 m0] qs IH]; intros c k a Hin; [contradiction|].
  rewrite prec_queries_cons in Hin. destruct Hin as [E|Hin].
  - injection E as <- <-. apply reported_head.
  - rewrite <- reported_step. apply IH, Hin.
Qed.

Lemma first_of_kind_in k v : forall qs, first_of_kind k qs = Some v -> In (k, v) qs.
Proof.
  induction qs as [|[k0 m0] qs IH]; [discriminate|]. cbn [first_of_kind].
  destruct (tkind_eqb k k0) eqn:Ek; [|right; apply IH; assumption].
  apply tkind_eqb_eq in Ek. intros E. injection E as <-. subst k0. left. reflexivity.
Qed.

Lemma all_eqb_const (v : N) : forall l, (forall x, In x l -> x = v) -> all_eqb l = true.
Proof.
  induction l as [|x [|y t] IH]; intros H; try reflexivity.
  change (all_eqb (x :: y :: t)) with ((x =? y) && all_eqb (y :: t)).
  rewrite IH by (intros z Hz; apply H; right; exact Hz).
  rewrite (H x), (H y) by (cbn; auto). rewrite N.eqb_refl. reflexivity.
Qed.

Lemma precq_sb_intro kinds tscv answers w :
  length kinds = length answers ->
  (forall k a, In (k, a) (combine kinds answers) ->
     match k with KTsc => a = tscv | KOs => a = w /\ 0 < a /\ a mod 1000 = 0 end) ->
  precq_sb kinds tscv answers = true.
Proof.
  intros Hlen H. unfold precq_sb. rewrite Hlen, Nat.eqb_refl. cbn [andb].
  set (os := map snd (filter _ _)).
  assert (Hos : forall v, In v os -> v = w /\ 0 < v /\ v mod 1000 = 0).
  { intros v Hv. apply in_map_iff in Hv. destruct Hv as [[k a] [<- Hin]].
    apply filter_In in Hin. destruct Hin as [Hin Hk]. specialize (H k a Hin).
    destruct k; [exact H|discriminate Hk]. }
  rewrite !andb_true_iff. split; [|split].
  - apply forallb_forall. intros [k a] Hin. specialize (H k a Hin). cbn [fst snd].
    destruct k; [reflexivity|]. apply N.eqb_eq, H.
  - apply (all_eqb_const w). intros v Hv. apply Hos, Hv.
  - apply forallb_forall. intros v Hv. destruct (Hos v Hv) as [_ [Hp Hm]].
    apply andb_true_iff. split; [apply N.ltb_lt, Hp|apply N.eqb_eq, Hm].
Qed.

Theorem precq_model_sb : forall qs tscv,
  Forall (fun q => match fst q with KTsc => snd q = tscv | KOs => 0 < snd q /\ snd q mod 1000 = 0 end) qs ->
  precq_sb (map fst qs) tscv (prec_queries pcache_empty qs) = true.
Proof.
  intros qs tscv Hq.
  apply (precq_sb_intro _ _ _ (match first_of_kind KOs qs with Some v => v | None => 0 end)).
  - rewrite map_length, prec_queries_length. reflexivity.
  - intros k a Hf%prec_queries_in. rewrite reported_empty in Hf.
    rewrite Forall_forall in Hq. specialize (Hq _ (first_of_kind_in _ _ _ Hf)). cbn [fst snd] in Hq.
    destruct k; [rewrite Hf; split; [reflexivity|exact Hq]|exact Hq].
Qed.
