(** The failed-thread-creation extension (Model/PoolFail.v): an aborted
    broadcast preserves every invariant of the pool model and touches nothing
    but the thread list and the script, so for the code's shape all C06 / C07
    statements hold along every execution of the extended relation (any number
    of aborted broadcasts anywhere in the script).  The two seeded shapes (lock
    not recovered after poisoning = C06-m, sender pushed before the spawn =
    C06-n) are refuted by witnesses. *)

From DivanV Require Import Model.Pool Model.PoolFail
  Proofs.Pool Proofs.PoolLive Proofs.PoolCalls Proofs.PoolViews Proofs.PoolSlots Proofs.ListFacts.
From Coq Require Import Arith Lia List Bool.
Import ListNotations.
Import PoolM PoolF.

Lemma inv_abort s j rest : Inv s -> cst s = CIdle -> Inv (st_abort s j rest).
Proof.
  intros I Hc. destruct (idle_appended s j I Hc) as [NP' NE].
  constructor; unfold st_abort; cbn.
  - unfold rc_ok, count_pre; cbn. now apply count_pre_none.
  - apply Forall_app; split; [exact (I_wf s I)|]. apply Forall_repeat. exact Logic.I.
  - rewrite (I_alive s I), Hc. reflexivity.
  - exact Logic.I.
  - intros _. exact NE.
  - apply (I_bad s I).
  - intros k w E P. exfalso. pose proof (Forall_nth_error _ _ _ _ NP' E) as F. cbn in F. congruence.
  - rewrite !app_length, !repeat_length. now rewrite (I_wv s I).
Qed.

Lemma inv2_abort scr s j rest :
  Inv2 scr s -> cst s = CIdle ->
  Inv2 (map r_n (returned s) ++ rest) (st_abort s j rest).
Proof.
  intros J Hc. pose proof J as [J1 J2 J3 J4 J5 J6 J7 J8 J9].
  rewrite Hc in *. cbn in *.
  constructor; unfold st_abort; cbn; auto; try discriminate.
  eapply Forall_impl; [|exact J6]. intros r [R1 R2]. split; auto.
  cbn. rewrite Hc in R1. exact R1.
Qed.

Lemma invv_abort c s j rest : Inv s -> InvV c s -> InvV c (st_abort s j rest).
Proof.
  intros I V. constructor; unfold st_abort; cbn; try discriminate.
  - intros k b H. exact (worker_view_appended c s _ _ k b I V H).
  - apply V.
Qed.

Lemma invs_abort s j rest : InvS s -> InvS (st_abort s j rest).
Proof.
  intros SS. constructor; unfold st_abort; cbn; [discriminate|].
  eapply Forall_impl; [|exact (S_ret _ SS)]. intros r H. rewrite H.
  symmetry. apply expected_slots_ext; reflexivity.
Qed.

(** From any state satisfying the pool invariants at a broadcast boundary, an
    aborted broadcast ([j] threads created, the next creation refused) leaves a
    state satisfying the same invariants, whose workers are the old ones plus
    the [j] successfully created idle ones; no task was handed out (no worker
    state changed), no call was made, the counter, the park token, the
    broadcast numbering and the records are untouched. *)
Theorem fail_preserves_inv c scr s j n rest :
  Inv s -> Inv2 scr s -> InvV c s -> InvS s ->
  cst s = CIdle -> script s = n :: rest ->
  let s' := st_abort s j rest in
  Inv s' /\ (exists scr', Inv2 scr' s') /\ InvV c s' /\ InvS s'
  /\ ws s' = ws s ++ repeat WIdle j /\ script s' = rest /\ cst s' = CIdle
  /\ calls s' = calls s /\ panics s' = panics s /\ rc s' = rc s /\ token s' = token s
  /\ cur s' = cur s /\ returned s' = returned s /\ bad s' = bad s.
Proof.
  intros I J V SS Hc Es. cbn zeta.
  split; [now apply inv_abort|].
  split; [eexists; eapply inv2_abort; eauto|].
  split; [now apply invv_abort|].
  split; [now apply invs_abort|].
  repeat split.
Qed.

Inductive xreachable (c : cfg) (fc : fcfg) (scr : list nat) : xstate -> Prop :=
| XR_init : xreachable c fc scr (xinit scr)
| XR_step x xl x' : xreachable c fc scr x -> xstep c fc x xl = Some x' -> xreachable c fc scr x'.

Definition chans_after (x : xstate) (l : label) : list bool :=
  match l with
  | EBegin n => if Nat.eqb n 0 then chans x else chans x ++ repeat true (n - length (chans x))
  | _ => chans x
  end.

Inductive xstep_of (c : cfg) (fc : fcfg) (x : xstate) : xlabel -> xstate -> Prop :=
| XS_step l x' :
    step c (base x) l = Some (base x') -> chans x' = chans_after x l -> poisoned x' = poisoned x ->
    (forall n, l = EBegin n -> n <> 0 -> lock_ok fc x = true /\ all_live x = true) ->
    xstep_of c fc x (XStep l) x'
| XS_abort n j rest x' :
    cst (base x) = CIdle -> script (base x) = n :: rest -> length (ws (base x)) + j < n ->
    lock_ok fc x = true -> all_live x = true ->
    base x' = st_abort (base x) j rest ->
    chans x' = chans x ++ repeat true j ++ (if f_push_after fc then [] else [false]) -> poisoned x' = true ->
    xstep_of c fc x (XAbort n j) x'.

Lemma xstep_inv c fc x xl x' : xstep c fc x xl = Some x' -> xstep_of c fc x xl x'.
Proof.
  intro H. destruct xl as [l|n j]; cbn [xstep] in H.
  - destruct l;
      try (destruct (step c (base x) _) as [s'|] eqn:E; [|discriminate]; injection H as <-;
           constructor; [exact E|reflexivity|reflexivity|discriminate]).
    unfold chans_after.
    destruct (Nat.eqb n 0) eqn:Z; [|destruct (lock_ok fc x && all_live x) eqn:L; [apply andb_prop in L|discriminate]];
      (destruct (step c (base x) (EBegin n)) as [s'|] eqn:E; [|discriminate]); injection H as <-;
      constructor; cbn; rewrite ?Z; auto.
    intros m [= <-] Nm. apply Nat.eqb_eq in Z. contradiction.
  - destruct (cst (base x)) eqn:Hc; try discriminate.
    destruct (script (base x)) as [|m rest] eqn:Es; try discriminate.
    destruct (Nat.eqb_spec n m) as [<-|]; [|discriminate].
    destruct (Nat.ltb_spec (length (ws (base x)) + j) n); [|discriminate].
    destruct (lock_ok fc x) eqn:Lk; [|discriminate]. destruct (all_live x) eqn:Al; [|discriminate].
    injection H as <-. now apply (XS_abort c fc x n j rest).
Qed.

Record XInv (c : cfg) (x : xstate) : Prop := {
  X_inv : Inv (base x);
  X_inv2 : exists scr, Inv2 scr (base x);
  X_v : InvV c (base x);
  X_s : InvS (base x);
  X_ch : chans x = repeat true (length (ws (base x)))
}.

Lemma all_live_ok c x : XInv c x -> all_live x = true.
Proof.
  intros X. unfold all_live. rewrite (X_ch _ _ X), repeat_length, Nat.eqb_refl, andb_true_r.
  apply forallb_forall. intros b Hb. now apply repeat_spec in Hb.
Qed.

Theorem xinv_step c x xl x' : good c -> XInv c x -> xstep c code_fcfg x xl = Some x' -> XInv c x'.
Proof.
  intros G X H. destruct X as [I [scr J] V SS Ch].
  destruct (xstep_inv _ _ _ _ _ H) as [l x' St C1 _ _|n j rest x' Hc _ _ _ _ B C1 _].
  - constructor.
    + eapply inv_step; eauto.
    + exists scr. eapply inv2_step; eauto.
    + eapply invv_step; eauto.
    + eapply invs_step; eauto.
    + rewrite C1. pose proof (spawn_reuse _ _ _ _ St) as L. unfold chans_after.
      destruct l; try (now rewrite L).
      destruct L as (L & _). rewrite L, Ch, repeat_length.
      destruct (Nat.eqb n 0) eqn:Z.
      * apply Nat.eqb_eq in Z. subst. now rewrite Nat.max_0_r.
      * rewrite <- repeat_app. f_equal. lia.
  - constructor; rewrite ?B.
    + now apply inv_abort.
    + eexists. eapply inv2_abort; eauto.
    + now apply invv_abort.
    + now apply invs_abort.
    + rewrite C1. cbn. rewrite app_nil_r, Ch, app_length, repeat_length. now rewrite <- repeat_app.
Qed.

Theorem xinv_reachable c scr x : good c -> xreachable c code_fcfg scr x -> XInv c x.
Proof.
  intros G R. induction R.
  - constructor; cbn.
    + apply inv_init.
    + eexists. apply inv2_init.
    + apply invv_init.
    + apply invs_init.
    + reflexivity.
  - eapply xinv_step; eauto.
Qed.

Lemma xstep_of_step c x l s' :
  XInv c x -> step c (base x) l = Some s' ->
  exists x', xstep c code_fcfg x (XStep l) = Some x' /\ base x' = s'.
Proof.
  intros X St. pose proof (all_live_ok _ _ X) as A.
  destruct l; cbn [xstep]; rewrite ?St; try (eexists; split; [reflexivity|reflexivity]).
  destruct (Nat.eqb n 0).
  - eexists; split; reflexivity.
  - unfold lock_ok. cbn [f_recover code_fcfg]. rewrite orb_true_r, A. cbn [andb]. eexists; split; reflexivity.
Qed.

Theorem x_c06 c scr x :
  good c -> xreachable c code_fcfg scr x ->
  bad (base x) = false
  /\ (forall r, In r (returned (base x)) ->
        once_per_index (base x) (r_b r) (r_n r) = true
        /\ (forall i, In (r_b r, i) (calls (base x)) <-> i <= r_n r)
        /\ r_slots r = expected_slots (base x) (r_b r) (r_n r)
        /\ (is_release (c_dec c) = true -> is_acquire (c_load c) = true ->
            view_has_all (r_b r) (r_n r) (r_view r) = true))
  /\ NoDup (calls (base x))
  /\ (in_broadcast (cst (base x)) = false -> Forall (fun w => any_pre w = false) (ws (base x))).
Proof.
  intros G R. destruct (xinv_reachable _ _ _ G R) as [I [scr' J] V SS _].
  split; [apply I|]. split; [|split; [apply J|intro B; now apply no_pre_idle]].
  intros r Hr. destruct (once_per_index_inv scr' _ r J Hr) as (O & _ & C).
  repeat split; try apply C; auto.
  - exact (proj1 (Forall_forall _ _) (S_ret _ SS) r Hr).
  - intros Rl Aq. exact (proj1 (publication_inv c _ r V Rl Aq Hr)).
Qed.

Definition xlex_lt (x' x : xstate) : Prop := lex_lt (base x') (base x).

Lemma x_measure c x xl x' :
  XInv c x -> xstep c code_fcfg x xl = Some x' -> xl <> XStep ESpurious -> xlex_lt x' x.
Proof.
  intros X H NS. unfold xlex_lt.
  destruct (xstep_inv _ _ _ _ _ H) as [l x' St _ _ _|n j rest x' Hc Es _ _ _ B _ _].
  - eapply measure_decreases; eauto; [apply X|]. intros ->. now apply NS.
  - left. rewrite B. unfold outer_measure, st_abort; cbn. rewrite Es, Hc. cbn. lia.
Qed.

Theorem x_c07 c scr x :
  good c -> xreachable c code_fcfg scr x ->
  (* no lost wake-up *)
  (forall n, cst (base x) = CPark n -> rc (base x) = 0 -> token (base x) = false ->
     exists k x', getw (base x) k = Some (WUnpark (cur (base x))) /\ xstep c code_fcfg x (XStep (EWUnpark k)) = Some x')
  (* deadlock freedom *)
  /\ (xfinal x = false -> exists l x', l <> ESpurious /\ xstep c code_fcfg x (XStep l) = Some x')
  (* the measure decreases on every step that is not a spurious wake-up *)
  /\ (forall xl x', xstep c code_fcfg x xl = Some x' -> xl <> XStep ESpurious -> xlex_lt x' x).
Proof.
  intros G R. pose proof (xinv_reachable _ _ _ G R) as X. split; [|split].
  - intros n Hc Hr Ht. destruct (wake_up c _ n (X_inv _ _ X) Hc Hr Ht) as (k & Hg & St).
    destruct (xstep_of_step c x _ _ X St) as (x' & Sx & _). eauto.
  - intro F. destruct (can_move_inv c _ (X_inv _ _ X) F) as (l & s' & NS & St).
    destruct (xstep_of_step c x _ _ X St) as (x' & Sx & _). eauto.
  - intros xl x' H NS. eapply x_measure; eauto.
Qed.

(** No infinite extended execution has finitely many spurious wake-ups. *)
Theorem x_no_infinite_run c scr (f : nat -> xstate) (ls : nat -> xlabel) :
  good c -> f 0 = xinit scr -> (forall i, xstep c code_fcfg (f i) (ls i) = Some (f (S i))) ->
  forall N, exists i, N <= i /\ ls i = XStep ESpurious.
Proof.
  intros G H0 Hs.
  assert (R : forall i, xreachable c code_fcfg scr (f i)).
  { induction i; [rewrite H0; constructor|]. econstructor; eauto. }
  apply (spurious_recurs base (XStep ESpurious) f ls). intro i.
  assert (D : ls i = XStep ESpurious \/ ls i <> XStep ESpurious).
  { destruct (ls i) as [l|n j]; [|right; discriminate].
    destruct (spurious_or_not l) as [->|N]; [now left|right; congruence]. }
  destruct D as [E|NS]; [now left|right].
  exact (x_measure c _ _ _ (xinv_reachable _ _ _ G (R i)) (Hs i) NS).
Qed.

Lemma xrun_of_run c : good c -> forall ls x s',
  XInv c x -> run c (base x) ls = Some s' ->
  exists x', xrun c code_fcfg x (map XStep ls) = Some x' /\ base x' = s'.
Proof.
  intros G. induction ls as [|l ls IH]; cbn [run map xrun]; intros x s' X H.
  - injection H as <-. eauto.
  - destruct (step c (base x) l) as [s1|] eqn:St; [|discriminate].
    destruct (xstep_of_step c x l s1 X St) as (x1 & Sx & <-). rewrite Sx.
    apply IH; auto. eapply xinv_step; eauto.
Qed.

(** From every state of an extended execution the final state is reached
    (pool dropped, every worker exited) without any spurious wake-up: no
    further broadcast need be aborted. *)
Theorem x_reaches_final c scr x :
  good c -> xreachable c code_fcfg scr x ->
  exists ls x', xrun c code_fcfg x ls = Some x' /\ xfinal x' = true /\ ~ In (XStep ESpurious) ls.
Proof.
  intros G R. pose proof (xinv_reachable _ _ _ G R) as X.
  destruct (reaches_final_inv c (base x) G (X_inv _ _ X)) as (ls & s' & Rn & F & Nin).
  destruct (xrun_of_run c G ls x s' X Rn) as (x' & Rx & <-).
  exists (map XStep ls), x'. repeat split; auto.
  intro H. apply in_map_iff in H. destruct H as (l & E & Hl). injection E as ->. contradiction.
Qed.

Lemma xrun_reachable c fc scr x ls x' :
  xreachable c fc scr x -> xrun c fc x ls = Some x' -> xreachable c fc scr x'.
Proof.
  revert x. induction ls as [|l ls IH]; cbn [xrun]; intros x R H.
  - now inversion H; subst.
  - destruct (xstep c fc x l) as [x1|] eqn:E; [|discriminate]. apply (IH x1); [|exact H]. econstructor; eauto.
Qed.

Definition x_labels : list xlabel :=
  XAbort 2 1 ::
  map XStep [EBegin 2; ESend 1; ESend 2; ERun0 false; EWRun 1 false; EWClone 1; EWDec 1; EWRun 2 true; EWClone 2; EWDec 2;
             ELoad; EDrop; EWUnpark 2; EWExit 1; EWExit 2].

(** Script [2; 2]: the first broadcast is aborted after thread 1 was created
    (the creation of thread 2 is refused); the second one creates the missing
    thread 2, reuses thread 1, runs its three calls (call 2 panics), returns;
    the pool is dropped and both workers exit.  One return record. *)
Example x_example :
  exists x, xreachable code_cfg code_fcfg [2; 2] x /\ xfinal x = true
            /\ map r_n (returned (base x)) = [2] /\ length (ws (base x)) = 2
            /\ map r_slots (returned (base x)) = [[Some 0; Some 1; None]].
Proof.
  destruct (xrun code_cfg code_fcfg (xinit [2; 2]) x_labels) as [x|] eqn:E; [|vm_compute in E; discriminate].
  assert (R : xreachable code_cfg code_fcfg [2; 2] x) by (eapply xrun_reachable; [constructor|exact E]).
  vm_compute in E. injection E as <-.
  eexists. split; [exact R|]. repeat split.
Qed.

(** C06-m: [lock().unwrap()] instead of recovering from poisoning.  After an
    aborted broadcast the next broadcast with [n >= 1] cannot take the lock: in
    the code the caller panics there, before index 0 runs; in the model no step
    at all is enabled in a non-final state (deadlock freedom fails). *)
Definition fcfg_no_recover : fcfg := {| f_recover := false; f_push_after := true |}.

Theorem lock_not_recovered_refuted :
  exists x, xreachable code_cfg fcfg_no_recover [1; 1] x /\ xfinal x = false
            /\ script (base x) = [1] /\ forall xl, xstep code_cfg fcfg_no_recover x xl = None.
Proof.
  destruct (xstep code_cfg fcfg_no_recover (xinit [1; 1]) (XAbort 1 0)) as [x|] eqn:E; [|vm_compute in E; discriminate].
  assert (R : xreachable code_cfg fcfg_no_recover [1; 1] x) by (econstructor; [constructor|exact E]).
  vm_compute in E. injection E as <-.
  eexists. split; [exact R|]. split; [reflexivity|]. split; [reflexivity|].
  intros [l|n j].
  - destruct l; try reflexivity.
    + cbn [xstep]. destruct (Nat.eqb n 0) eqn:Z; [|reflexivity].
      apply Nat.eqb_eq in Z. subst. reflexivity.
    + destruct k as [|[|k]]; reflexivity.
    + destruct k as [|[|k]]; reflexivity.
    + destruct k as [|[|k]]; reflexivity.
    + destruct k as [|[|k]]; reflexivity.
  - cbn [xstep base cst script]. destruct (Nat.eqb n 1), (Nat.ltb (length (ws _) + j) n); reflexivity.
Qed.

(** C06-n: the sender enters [threads] before the thread is created.  After a
    refused creation the list holds a dead channel and counts a thread that
    does not exist; the next broadcast reaching that index does not create the
    thread and sends into the dead channel (in the code: [send(..).unwrap()]
    panics after the lower threads already have the task).  The invariant
    "one live entry per worker" is violated and the broadcast is not a step. *)
Definition fcfg_push_first : fcfg := {| f_recover := true; f_push_after := false |}.

Theorem push_before_spawn_refuted :
  exists x, xreachable code_cfg fcfg_push_first [2; 2] x
            /\ In false (chans x) /\ length (chans x) <> length (ws (base x))
            /\ script (base x) = [2] /\ xstep code_cfg fcfg_push_first x (XStep (EBegin 2)) = None.
Proof.
  destruct (xstep code_cfg fcfg_push_first (xinit [2; 2]) (XAbort 2 1)) as [x|] eqn:E; [|vm_compute in E; discriminate].
  assert (R : xreachable code_cfg fcfg_push_first [2; 2] x) by (econstructor; [constructor|exact E]).
  vm_compute in E. injection E as <-.
  eexists. split; [exact R|]. cbn. repeat split; auto.
Qed.
