(** [compute_stats] (Model/Stats.v) on an admissible sorted view, under the
    guards [size_ok] and [no_overflow]: it does not panic, its time figures are
    the order statistics of the durations and lie within their bounds, and every
    f64 column is finite. *)
From DivanV Require Import Base.Res Model.Stats Proofs.StatsLists Proofs.ListFacts.
From Coq Require Import Permutation Sorted.
Local Open Scope N_scope.

Lemma two32_val : 2 ^ 32 = 4294967296. Proof. reflexivity. Qed.

Definition empty_inputs (s : N) : inputs :=
  {| in_size := s; in_durs := []; in_allocs := []; in_counters := [ {| ci_counts := []; ci_input := false |} ] |}.

(** The code before commit f2a8733 (F1): with no samples the median counter
    divides by [median_samples.len() = 0] ... *)
Example old_code_divides_by_zero :
  compute_stats false true [] (empty_inputs 1) = Panic DivByZero.
Proof. reflexivity. Qed.

(** ... and, had it not panicked, every allocation figure would be [0.0/0.0]. *)
Example old_code_nan :
  exists st, compute_stats false true []
               {| in_size := 0; in_durs := []; in_allocs := []; in_counters := [] |} = Ok st
             /\ existsb xq_is_nan (all_xq st) = true.
Proof. eexists. split; [reflexivity|]. reflexivity. Qed.

(** The current code still divides by the sample size when samples exist. *)
Lemma zero_sample_size_panics :
  forall dbg, compute_stats true dbg [(0, 1)]
    {| in_size := 0; in_durs := [1]; in_allocs := []; in_counters := [] |} = Panic DivByZero.
Proof. intros []; reflexivity. Qed.

Lemma bind_ok_inv {A B} (r : res A) (f : A -> res B) y :
  bind r f = Ok y -> exists x, r = Ok x /\ f x = Ok y.
Proof. destruct r as [x|]; [|discriminate]. intros H. exists x. split; [reflexivity|exact H]. Qed.

Lemma add128_exact dbg a b : a + b < 2 ^ 128 -> add128 dbg a b = Ok (a + b).
Proof.
  intros H. unfold add128, checked_add. destruct dbg.
  - apply N.ltb_lt in H. rewrite H. reflexivity.
  - rewrite N.mod_small by exact H. reflexivity.
Qed.

Lemma sum128_exact dbg l : forall acc,
  acc + sum_list l < 2 ^ 128 -> sum128 dbg acc l = Ok (acc + sum_list l).
Proof.
  induction l as [|x r IH]; intros acc H; cbn [sum128 sum_list] in *.
  - rewrite N.add_0_r. reflexivity.
  - rewrite N.add_assoc in *. rewrite add128_exact; [apply IH, H|].
    apply N.le_lt_trans with (2 := H), N.le_add_r.
Qed.

Lemma sum128_ok dbg l acc :
  (dbg = true -> acc + sum_list l < 2 ^ 128) -> exists v, sum128 dbg acc l = Ok v.
Proof.
  destruct dbg; [intros H; eexists; apply sum128_exact, H, eq_refl|intros _].
  revert acc. induction l as [|x r IH]; intros acc; [eexists; reflexivity|apply IH].
Qed.

Lemma mul64_exact dbg a b : a * b < 2 ^ 64 -> mul64 dbg a b = Ok (a * b).
Proof.
  intros H. unfold mul64, checked_mul. destruct dbg.
  - apply N.ltb_lt in H. rewrite H. reflexivity.
  - rewrite N.mod_small by exact H. reflexivity.
Qed.

Lemma mul64_ok dbg a b : (dbg = true -> a * b < 2 ^ 64) -> exists v, mul64 dbg a b = Ok v.
Proof. destruct dbg; [intros H; rewrite mul64_exact by exact (H eq_refl)|]; eexists; reflexivity. Qed.

Lemma checked_div_ok a b : b <> 0 -> checked_div a b = Ok (a / b).
Proof. intros H. unfold checked_div. apply N.eqb_neq in H. rewrite H. reflexivity. Qed.

Lemma checked_div_inv a b v : checked_div a b = Ok v -> b <> 0 /\ v = a / b.
Proof.
  unfold checked_div. destruct (b =? 0) eqn:E; [discriminate|]. intros [= <-].
  apply N.eqb_neq in E. split; [exact E|reflexivity].
Qed.

Lemma slice_from_to_ok {A} a k (l : list A) :
  (k + a <= length l)%nat -> (do t <- slice_from a l; slice_to k t) = Ok (firstn k (skipn a l)).
Proof.
  intros H. unfold slice_from, slice_to.
  rewrite (proj2 (Nat.leb_le _ _) (Nat.le_trans _ _ _ (Nat.le_add_l a k) H)). cbn [bind].
  rewrite skipn_length, (proj2 (Nat.leb_le _ _) (Nat.le_add_le_sub_r _ _ _ H)). reflexivity.
Qed.

(** The two middle positions of a non-empty list of even length. *)
Lemma even_half n : Nat.even n = true -> n <> 0%nat -> exists k, (n / 2 - 1 = k /\ n / 2 = S k /\ S k < n)%nat.
Proof.
  intros He Hn. apply Nat.even_spec in He. destruct He as [m ->].
  replace (2 * m / 2)%nat with m by (symmetry; rewrite Nat.mul_comm; apply Nat.div_mul; lia).
  destruct m as [|k]; [lia|]. exists k. lia.
Qed.

Lemma half_lt n : n <> 0%nat -> (n / 2 < n)%nat.
Proof. intros H. apply Nat.div_lt; lia. Qed.

(** What [slice_middle] returns: never a panic; nothing, the middle element,
    or the two middle elements. *)
Inductive middle_of {A} (l : list A) : list A -> Prop :=
| MidNone : l = [] -> middle_of l []
| MidOne x : Nat.even (length l) = false -> nth_error l (length l / 2) = Some x -> middle_of l [x]
| MidTwo x y : l <> [] -> Nat.even (length l) = true ->
               nth_error l (length l / 2 - 1) = Some x -> nth_error l (length l / 2) = Some y ->
               middle_of l [x; y].

Lemma slice_middle_ok {A} (l : list A) : exists m, slice_middle l = Ok m /\ middle_of l m.
Proof.
  unfold slice_middle. destruct (length l =? 0)%nat eqn:E0.
  - apply Nat.eqb_eq in E0. destruct l; [|discriminate]. exists []. split; [reflexivity|constructor; reflexivity].
  - apply Nat.eqb_neq in E0. destruct (Nat.even (length l)) eqn:Ev.
    + destruct (even_half _ Ev E0) as (k & E1 & E2 & Hk).
      destruct (lt_nth_error l k (Nat.lt_succ_l _ _ Hk)) as [x Hx]. destruct (lt_nth_error l (S k) Hk) as [y Hy].
      exists [x; y]. split; [|apply MidTwo; rewrite ?E1, ?E2; try assumption; intros ->; apply E0; reflexivity].
      rewrite E1, (slice_from_to_ok k 2 l Hk), (skipn_nth_error _ _ _ Hx), (skipn_nth_error _ _ _ Hy). reflexivity.
    + pose proof (half_lt _ E0) as Hlt. destruct (lt_nth_error _ _ Hlt) as [y Hy].
      exists [y]. split; [|apply MidOne; assumption].
      rewrite (slice_from_to_ok _ 1 l Hlt), (skipn_nth_error _ _ _ Hy). reflexivity.
Qed.

Lemma middle_length {A} (l m : list A) : middle_of l m -> (length m <= 2)%nat /\ (l <> [] -> m <> []).
Proof. intros H. destruct H; cbn [length]; split; try lia; try congruence. Qed.

Lemma middle_subset {A} (l m : list A) x : middle_of l m -> In x m -> In x l.
Proof.
  intros H Hx. destruct H as [->|y _ Hy|y z _ _ Hy Hz]; [destruct Hx| |].
  - destruct Hx as [<-|[]]. eapply nth_error_In; exact Hy.
  - destruct Hx as [<-|[<-|[]]]; eapply nth_error_In; eassumption.
Qed.

Lemma count_for_some_nonempty ci s c : count_for ci s = Some c -> ci_counts ci <> [].
Proof. unfold count_for. intros H Hn. rewrite Hn in H. destruct (if ci_input ci then _ else _); discriminate. Qed.

Lemma first_count_nonempty ci sv f :
  opt_bind (hd_error sv) (count_for ci) = Some f -> ci_counts ci <> [].
Proof. destruct (hd_error sv) as [s|]; [apply count_for_some_nonempty|discriminate]. Qed.

Lemma mean_count_ok ci :
  ci_counts ci <> [] ->
  mean_count ci = Ok ((sum_list (ci_counts ci) / N.of_nat (length (ci_counts ci))) mod 2 ^ 64).
Proof.
  intros H. unfold mean_count. rewrite checked_div_ok; [reflexivity|].
  destruct (ci_counts ci); [congruence|discriminate].
Qed.

(** The current [kind_stats] never panics; this is what it returns. *)
Definition kind_set (ci : counter_in) (sv mids : list (N * N)) : option (stats_set N) :=
  match median_counter_sum ci mids 0,
        opt_bind (hd_error sv) (count_for ci), opt_bind (last_error sv) (count_for ci) with
  | Some sum, Some f, Some l =>
      Some {| fastest := f; slowest := l;
              median := (sum / N.max (N.of_nat (length mids)) 1) mod 2 ^ 64;
              mean := (sum_list (ci_counts ci) / N.of_nat (length (ci_counts ci))) mod 2 ^ 64 |}
  | _, _, _ => None
  end.

Lemma kind_stats_eq ci sv mids : kind_stats true ci sv mids = Ok (kind_set ci sv mids).
Proof.
  unfold kind_stats, kind_set. destruct (median_counter_sum ci mids 0) as [sum|]; [|reflexivity].
  rewrite checked_div_ok by lia. cbn [bind].
  destruct (opt_bind (hd_error sv) (count_for ci)) as [f|] eqn:Ef; [|reflexivity].
  destruct (opt_bind (last_error sv) (count_for ci)) as [l|]; [|reflexivity].
  rewrite mean_count_ok; [reflexivity|exact (first_count_nonempty _ _ _ Ef)].
Qed.

Lemma kind_set_inv ci sv mids set :
  kind_set ci sv mids = Some set ->
  exists sum, median_counter_sum ci mids 0 = Some sum /\
    median set = (sum / N.max (N.of_nat (length mids)) 1) mod 2 ^ 64 /\
    opt_bind (hd_error sv) (count_for ci) = Some (fastest set) /\
    opt_bind (last_error sv) (count_for ci) = Some (slowest set) /\
    mean set = (sum_list (ci_counts ci) / N.of_nat (length (ci_counts ci))) mod 2 ^ 64.
Proof.
  unfold kind_set. destruct (median_counter_sum ci mids 0) as [sum|]; [|discriminate].
  destruct (opt_bind (hd_error sv) _) as [f|]; [|discriminate].
  destruct (opt_bind (last_error sv) _) as [l|]; [|discriminate].
  intros [= <-]. exists sum. repeat split; reflexivity.
Qed.

Lemma map_res_ok {A B} (f : A -> res B) (g : A -> B) l :
  (forall x, f x = Ok (g x)) -> map_res f l = Ok (map g l).
Proof. intros H. induction l as [|x r IH]; cbn [map_res map]; [reflexivity|]. rewrite H, IH. reflexivity. Qed.

Lemma compute_stats_inv dbg sv inp st :
  compute_stats true dbg sv inp = Ok st ->
  exists tc td mids mn mx md,
    mul64 dbg (in_size inp) (N.of_nat (length (in_durs inp))) = Ok tc /\
    sum128 dbg 0 (in_durs inp) = Ok td /\
    middle_of sv mids /\
    end_duration (hd_error sv) (in_size inp) = Ok mn /\
    end_duration (last_error sv) (in_size inp) = Ok mx /\
    median_duration_of dbg mids (in_size inp) = Ok md /\
    st = assemble true inp sv mids tc mn mx md (if tc =? 0 then 0 else td / tc)
           (map (fun ci => kind_set ci sv mids) (in_counters inp)).
Proof.
  unfold compute_stats. intros H.
  apply bind_ok_inv in H. destruct H as (tc & E1 & H).
  apply bind_ok_inv in H. destruct H as (td & E2 & H).
  destruct (slice_middle_ok sv) as (mids & E3 & Hm). rewrite E3 in H. cbn [bind] in H.
  apply bind_ok_inv in H. destruct H as (mn & E4 & H).
  apply bind_ok_inv in H. destruct H as (mx & E5 & H).
  apply bind_ok_inv in H. destruct H as (md & E6 & H).
  rewrite (map_res_ok _ _ _ (fun ci => kind_stats_eq ci sv mids)) in H. injection H as <-.
  exists tc, td, mids, mn, mx, md. repeat split; assumption.
Qed.

Definition size_ok (inp : inputs) : Prop := in_size inp <> 0 \/ in_durs inp = [].
(** The u128 total of the durations and the u64 iteration count do not overflow. *)
Definition no_overflow (inp : inputs) : Prop :=
  sum_list (in_durs inp) < 2 ^ 128 /\ in_size inp * N.of_nat (length (in_durs inp)) < 2 ^ 64.

Lemma admissible_nil durs : admissibleb durs [] = true -> durs = [].
Proof.
  intros H. destruct (admissible_vals _ _ H) as (_ & _ & L). destruct durs; [reflexivity|discriminate].
Qed.

Lemma admissible_nonempty durs sv x r : admissibleb durs sv = true -> sv = x :: r -> durs <> [].
Proof.
  intros H -> ->. destruct (admissible_vals _ _ H) as (_ & _ & L). discriminate.
Qed.

Lemma admissible_size_ok inp sv :
  admissibleb (in_durs inp) sv = true -> size_ok inp -> in_size inp <> 0 \/ sv = [].
Proof.
  intros H [Hs|Hd]; [left; exact Hs|right].
  destruct sv; [reflexivity|]. destruct (admissible_nonempty _ _ _ _ H eq_refl Hd).
Qed.

(** [o] is the first or the last sample of [sv]. *)
Lemma end_duration_ok o (sv : list (N * N)) s :
  s <> 0 \/ sv = [] -> (sv = [] -> o = None) -> exists v, end_duration o s = Ok v.
Proof.
  intros Hs Ho. destruct o as [x|]; cbn [end_duration]; [|eexists; reflexivity].
  rewrite checked_div_ok; [eexists; reflexivity|]. destruct Hs as [Hs|Hs]; [exact Hs|discriminate (Ho Hs)].
Qed.

Lemma mids_sum_le (sv mids : list (N * N)) : middle_of sv mids -> sum_list (map snd mids) <= sum_list (map snd sv).
Proof.
  intros [->|x _ Hx|x y Hne Hev Hx Hy]; cbn [map sum_list]; rewrite ?N.add_0_r.
  - apply N.le_0_l.
  - apply sum_list_in_le, in_map, (nth_error_In _ _ Hx).
  - destruct (even_half _ Hev) as (k & E1 & E2 & _); [destruct sv; [congruence|discriminate]|].
    rewrite E1 in Hx. rewrite E2 in Hy. apply (sum_list_nth2_le _ k); apply map_nth_error; assumption.
Qed.

Lemma median_duration_ok dbg sv mids s :
  middle_of sv mids -> (s <> 0 \/ sv = []) -> (dbg = true -> sum_list (map snd sv) < 2 ^ 128) ->
  exists v, median_duration_of dbg mids s = Ok v.
Proof.
  intros Hm [Hs| ->] Hov.
  - pose proof (mids_sum_le _ _ Hm) as Hle. unfold median_duration_of.
    destruct mids as [|a r]; [eexists; reflexivity|].
    destruct (sum128_ok dbg (map snd (a :: r)) 0) as [v ->];
      [intros D; rewrite N.add_0_l; exact (N.le_lt_trans _ _ _ Hle (Hov D))|].
    cbn [bind]. rewrite checked_div_ok by discriminate. cbn [bind].
    rewrite checked_div_ok by exact Hs. eexists; reflexivity.
  - destruct Hm as [_|x Hev _|x y Hne _ _ _];
      [eexists; reflexivity|discriminate Hev|contradiction Hne; reflexivity].
Qed.

Lemma median_duration_val dbg mids s :
  sum_list (map snd mids) < 2 ^ 128 ->
  median_duration_of dbg mids s =
  match mids with
  | [] => Ok 0
  | _ => checked_div (sum_list (map snd mids) / N.of_nat (length mids)) s
  end.
Proof.
  intros H. destruct mids as [|a r]; [reflexivity|]. unfold median_duration_of.
  rewrite sum128_exact by (rewrite N.add_0_l; exact H). cbn [bind].
  rewrite N.add_0_l, checked_div_ok by discriminate. reflexivity.
Qed.

Lemma compute_stats_total dbg sv inp :
  admissibleb (in_durs inp) sv = true -> size_ok inp -> (dbg = true -> no_overflow inp) ->
  exists mids tc mn mx md me,
    compute_stats true dbg sv inp =
    Ok (assemble true inp sv mids tc mn mx md me (map (fun ci => kind_set ci sv mids) (in_counters inp))).
Proof.
  intros Ha Hs Hov. destruct (admissible_vals _ _ Ha) as (P & _ & _).
  pose proof (admissible_size_ok _ _ Ha Hs) as Hs'.
  unfold compute_stats.
  destruct (mul64_ok dbg (in_size inp) (N.of_nat (length (in_durs inp)))) as [tc ->];
    [intros D; apply (Hov D)|]. cbn [bind].
  destruct (sum128_ok dbg (in_durs inp) 0) as [td ->]; [intros D; rewrite N.add_0_l; apply (Hov D)|]. cbn [bind].
  destruct (slice_middle_ok sv) as (mids & -> & Hm). cbn [bind].
  destruct (end_duration_ok (hd_error sv) sv (in_size inp) Hs') as [mn ->]; [intros ->; reflexivity|]. cbn [bind].
  destruct (end_duration_ok (last_error sv) sv (in_size inp) Hs') as [mx ->]; [intros ->; reflexivity|]. cbn [bind].
  destruct (median_duration_ok dbg sv mids (in_size inp) Hm Hs') as [md ->];
    [intros D; rewrite (sum_list_perm _ _ P); apply (Hov D)|]. cbn [bind].
  rewrite (map_res_ok _ _ _ (fun ci => kind_stats_eq ci sv mids)). cbn [bind].
  exists mids, tc, mn, mx, md, (if tc =? 0 then 0 else td / tc). reflexivity.
Qed.

Lemma zero_div s : 0 / s = 0.
Proof. destruct s; reflexivity. Qed.

Lemma spec_nil s : spec_median [] s = 0 /\ spec_mean [] s = 0 /\ spec_fastest [] s = 0 /\ spec_slowest [] s = 0.
Proof.
  unfold spec_median, spec_mean, spec_fastest, spec_slowest, list_min, list_max.
  cbn [length fold_left sum_list]. rewrite !zero_div. destruct (s * N.of_nat 0 =? 0); repeat split; reflexivity.
Qed.

Lemma spec_median_nonempty durs s :
  durs <> [] ->
  spec_median durs s =
  if Nat.even (length durs) then (mid_lo durs + mid_hi durs) / 2 / s else mid_hi durs / s.
Proof. destruct durs; [congruence|reflexivity]. Qed.

Lemma end_duration_hd durs sv s mn :
  admissibleb durs sv = true -> end_duration (hd_error sv) s = Ok mn -> mn = spec_fastest durs s.
Proof.
  intros Ha H. destruct sv as [|x r]; cbn [hd_error end_duration] in H.
  - injection H as <-. rewrite (admissible_nil _ Ha). symmetry. apply spec_nil.
  - apply checked_div_inv in H. destruct H as [_ ->].
    unfold spec_fastest. rewrite <- (admissible_hd durs (x :: r) x Ha eq_refl). reflexivity.
Qed.

Lemma end_duration_last durs sv s mx :
  admissibleb durs sv = true -> end_duration (last_error sv) s = Ok mx -> mx = spec_slowest durs s.
Proof.
  intros Ha H. destruct (last_error sv) as [x|] eqn:El; cbn [end_duration] in H.
  - apply checked_div_inv in H. destruct H as [_ ->].
    unfold spec_slowest. rewrite <- (admissible_last durs sv x Ha El). reflexivity.
  - injection H as <-. apply last_error_none in El. subst. rewrite (admissible_nil _ Ha).
    symmetry. apply spec_nil.
Qed.

Lemma nth_of_view durs sv k x :
  admissibleb durs sv = true -> nth_error sv k = Some x -> nth k (sort_vals durs) 0 = snd x.
Proof.
  intros Ha Hx. rewrite <- (admissible_sorted_vals _ _ Ha).
  apply nth_error_nth. rewrite nth_error_map, Hx. reflexivity.
Qed.

Lemma middle_view durs sv mids :
  admissibleb durs sv = true -> middle_of sv mids ->
  match mids with
  | [] => durs = []
  | [x] => durs <> [] /\ Nat.even (length durs) = false /\ mid_hi durs = snd x
  | [x; y] => durs <> [] /\ Nat.even (length durs) = true /\ mid_lo durs = snd x /\ mid_hi durs = snd y
  | _ => False
  end.
Proof.
  intros Ha Hm. destruct (admissible_vals _ _ Ha) as (_ & _ & L). unfold mid_lo, mid_hi. rewrite <- L.
  destruct Hm as [->|x Hev Hx|x y Hne Hev Hx Hy].
  - apply admissible_nil, Ha.
  - rewrite Hev. split; [intros ->; destruct sv; discriminate|]. split; [reflexivity|].
    apply (nth_of_view _ _ _ _ Ha Hx).
  - rewrite Hev. split; [intros ->; destruct sv; [congruence|discriminate]|]. split; [reflexivity|].
    split; [apply (nth_of_view _ _ _ _ Ha Hx)|apply (nth_of_view _ _ _ _ Ha Hy)].
Qed.

Lemma median_duration_spec dbg durs sv mids s md :
  admissibleb durs sv = true -> sum_list durs < 2 ^ 128 -> middle_of sv mids ->
  median_duration_of dbg mids s = Ok md -> md = spec_median durs s.
Proof.
  intros Ha Hov Hm H. destruct (admissible_vals _ _ Ha) as (P & _ & _).
  rewrite median_duration_val in H
    by (rewrite <- (sum_list_perm _ _ P) in Hov; exact (N.le_lt_trans _ _ _ (mids_sum_le _ _ Hm) Hov)).
  pose proof (middle_view _ _ _ Ha Hm) as V.
  destruct mids as [|x [|y [|z r]]]; [| | |destruct V].
  - injection H as <-. rewrite V. symmetry. apply spec_nil.
  - destruct V as (Hd & Hev & Eh). apply checked_div_inv in H. destruct H as [_ ->].
    rewrite (spec_median_nonempty _ _ Hd), Hev, Eh. cbn [map sum_list length]. change (N.of_nat 1) with 1.
    rewrite N.add_0_r, N.div_1_r. reflexivity.
  - destruct V as (Hd & Hev & El & Eh). apply checked_div_inv in H. destruct H as [_ ->].
    rewrite (spec_median_nonempty _ _ Hd), Hev, El, Eh. cbn [map sum_list length]. rewrite N.add_0_r. reflexivity.
Qed.

Lemma order_stats dbg sv inp st :
  admissibleb (in_durs inp) sv = true -> no_overflow inp ->
  compute_stats true dbg sv inp = Ok st ->
  fastest (st_time st) = spec_fastest (in_durs inp) (in_size inp) /\
  slowest (st_time st) = spec_slowest (in_durs inp) (in_size inp) /\
  median (st_time st) = spec_median (in_durs inp) (in_size inp) /\
  mean (st_time st) = spec_mean (in_durs inp) (in_size inp) /\
  st_iter_count st = in_size inp * N.of_nat (length (in_durs inp)) /\
  st_sample_count st = N.of_nat (length (in_durs inp)) mod 2 ^ 32.
Proof.
  intros Ha [Hov1 Hov2] H.
  apply compute_stats_inv in H.
  destruct H as (tc & td & mids & mn & mx & md & E1 & E2 & Hm & E4 & E5 & E6 & ->).
  rewrite mul64_exact in E1 by exact Hov2. rewrite sum128_exact in E2 by (rewrite N.add_0_l; exact Hov1).
  injection E1 as <-. injection E2 as <-.
  cbn [assemble st_time st_iter_count st_sample_count fastest slowest median mean].
  split; [eapply end_duration_hd; eassumption|].
  split; [eapply end_duration_last; eassumption|].
  split; [eapply median_duration_spec; eassumption|].
  split; [|split; reflexivity].
  unfold spec_mean. reflexivity.
Qed.

Lemma nth_sorted_between durs k :
  (k < length durs)%nat -> list_min durs <= nth k (sort_vals durs) 0 <= list_max durs.
Proof.
  intros Hk. assert (durs <> []) as Hne by (intros ->; inversion Hk).
  assert (In (nth k (sort_vals durs) 0) durs) as Hin.
  { apply (Permutation_in _ (sort_vals_perm durs)), nth_In.
    rewrite (Permutation_length (sort_vals_perm durs)). exact Hk. }
  destruct (list_min_spec _ Hne) as [_ F1]. destruct (list_max_spec _ Hne) as [_ F2].
  rewrite Forall_forall in F1, F2. split; [apply F1|apply F2]; exact Hin.
Qed.

Lemma halves_between lo a b hi s :
  s <> 0 -> lo <= a <= hi -> lo <= b <= hi -> lo / s <= (a + b) / 2 / s <= hi / s.
Proof.
  intros Hs Ha Hb. split; apply N.div_le_mono; try exact Hs.
  - apply N.div_le_lower_bound; lia.
  - apply N.div_le_upper_bound; lia.
Qed.

(** [lo / s = (lo * n) / (s * n)], and the numerators are ordered. *)
Lemma mean_between lo hi n s sum :
  s <> 0 -> n <> 0 -> n * lo <= sum <= n * hi -> lo / s <= sum / (s * n) <= hi / s.
Proof.
  intros Hs Hn H. rewrite !(N.mul_comm n) in H.
  assert (s * n <> 0) as Hsn by (apply N.neq_mul_0; split; assumption).
  rewrite <- (N.div_mul_cancel_r lo s n), <- (N.div_mul_cancel_r hi s n) by assumption.
  split; apply N.div_le_mono; try exact Hsn; apply H.
Qed.

Lemma spec_bounds durs s :
  s <> 0 \/ durs = [] ->
  spec_fastest durs s <= spec_median durs s <= spec_slowest durs s /\
  spec_fastest durs s <= spec_mean durs s <= spec_slowest durs s.
Proof.
  assert (durs = [] \/ durs <> []) as [->|Hne] by (destruct durs; [left; reflexivity|right; discriminate]).
  { intros _. destruct (spec_nil s) as (-> & -> & -> & ->). repeat split; apply N.le_refl. }
  intros [Hs|Hd]; [|congruence].
  assert (length durs <> 0%nat) as Hn by (destruct durs; [congruence|discriminate]).
  unfold spec_fastest, spec_slowest. split.
  - rewrite (spec_median_nonempty _ _ Hne).
    pose proof (nth_sorted_between durs _ (half_lt _ Hn)) as Hhi. fold (mid_hi durs) in Hhi.
    unfold mid_lo. destruct (Nat.even (length durs)) eqn:Hev; [|split; apply N.div_le_mono; try exact Hs; apply Hhi].
    destruct (even_half _ Hev Hn) as (k & -> & _ & Hk).
    apply halves_between; [exact Hs| |exact Hhi]. apply nth_sorted_between, Nat.lt_succ_l, Hk.
  - unfold spec_mean.
    destruct (list_min_spec _ Hne) as [_ F1]. destruct (list_max_spec _ Hne) as [_ F2].
    pose proof (sum_list_bounds durs _ _ F1 F2) as B.
    assert (N.of_nat (length durs) <> 0) as Hn' by (intros E; apply Hn, Nat2N.inj, E).
    rewrite (proj2 (N.eqb_neq _ _) (proj1 (N.neq_mul_0 _ _) (conj Hs Hn'))).
    apply mean_between; assumption.
Qed.

Lemma bounds dbg sv inp st :
  admissibleb (in_durs inp) sv = true -> size_ok inp -> no_overflow inp ->
  compute_stats true dbg sv inp = Ok st ->
  fastest (st_time st) <= median (st_time st) <= slowest (st_time st) /\
  fastest (st_time st) <= mean (st_time st) <= slowest (st_time st).
Proof.
  intros Ha Hs Hov H. destruct (order_stats _ _ _ _ Ha Hov H) as (-> & -> & -> & -> & _).
  apply spec_bounds. exact Hs.
Qed.

Lemma per_size_val v c : c <> 0 -> per_size v (xq_of_N c) = Fin v c.
Proof.
  intros H. unfold per_size, xq_of_N, xq_div. apply N.eqb_neq in H.
  rewrite H, N.mul_1_r, N.mul_1_l. reflexivity.
Qed.

Lemma med_entry_val a b m c :
  m <> 0 -> c <> 0 -> med_entry a b (xq_of_N m) (xq_of_N c) = Fin (a + b) (m * c).
Proof.
  intros Hm Hc. unfold med_entry, xq_of_N, xq_add, xq_div. apply N.eqb_neq in Hm, Hc.
  rewrite Hm, Hc, !N.mul_1_r, !N.mul_1_l. reflexivity.
Qed.

Lemma fin_is_fin n d : d <> 0 -> xq_is_fin (Fin n d) = true.
Proof. intros H. cbn [xq_is_fin]. apply N.eqb_neq in H. rewrite H. reflexivity. Qed.

Lemma column_of_fastest inp sv mids tc mn mx md me counts :
  column_of fastest (assemble true inp sv mids tc mn mx md me counts) =
  map (fun v => per_size v (xq_of_N (N.max (in_size inp) 1)))
      (figures_of_info (sample_alloc_info (in_allocs inp) (hd_error sv))).
Proof. reflexivity. Qed.

Lemma column_of_slowest inp sv mids tc mn mx md me counts :
  column_of slowest (assemble true inp sv mids tc mn mx md me counts) =
  map (fun v => per_size v (xq_of_N (N.max (in_size inp) 1)))
      (figures_of_info (sample_alloc_info (in_allocs inp) (last_error sv))).
Proof. reflexivity. Qed.

Lemma column_of_median inp sv mids tc mn mx md me counts :
  column_of median (assemble true inp sv mids tc mn mx md me counts) =
  map (fun p => med_entry (fst p) (snd p) (xq_of_N (N.max (N.of_nat (length mids)) 1))
                          (xq_of_N (N.max (in_size inp) 1)))
      (combine (figures_of_info (sample_alloc_info (in_allocs inp) (nth_error mids 0)))
               (figures_of_info (sample_alloc_info (in_allocs inp) (nth_error mids 1)))).
Proof. reflexivity. Qed.

Lemma column_of_mean inp sv mids tc mn mx md me counts :
  column_of mean (assemble true inp sv mids tc mn mx md me counts) =
  map (fun t => per_size t (xq_of_N (N.max tc 1)))
      (total_of ai_max_count (in_allocs inp) :: total_of ai_max_size (in_allocs inp) ::
       flat_map (fun op => [total_of (fun i => t_count (ai_tally op i)) (in_allocs inp);
                            total_of (fun i => t_size (ai_tally op i)) (in_allocs inp)]) all_ops).
Proof. reflexivity. Qed.

Lemma all_fin_columns st :
  forallb xq_is_fin (all_xq st) = true <->
  Forall (fun x => xq_is_fin x = true) (column_of fastest st) /\
  Forall (fun x => xq_is_fin x = true) (column_of slowest st) /\
  Forall (fun x => xq_is_fin x = true) (column_of median st) /\
  Forall (fun x => xq_is_fin x = true) (column_of mean st).
Proof. unfold all_xq. rewrite forallb_Forall, !Forall_app. reflexivity. Qed.

Lemma assemble_all_fin inp sv mids tc mn mx md me counts :
  forallb xq_is_fin (all_xq (assemble true inp sv mids tc mn mx md me counts)) = true.
Proof.
  apply all_fin_columns.
  rewrite column_of_fastest, column_of_slowest, column_of_median, column_of_mean.
  repeat split; apply Forall_map, Forall_all; intros v;
    rewrite ?per_size_val, ?med_entry_val by lia; apply fin_is_fin; lia.
Qed.

Lemma fin_not_nan l : forallb xq_is_fin l = true -> existsb xq_is_nan l = false.
Proof.
  induction l as [|x r IH]; cbn [forallb existsb]; [reflexivity|]. intros H.
  apply andb_true_iff in H. destruct H as [Hx Hr]. rewrite (IH Hr). destruct x; [reflexivity|discriminate..].
Qed.

Lemma total_no_nan dbg sv inp :
  admissibleb (in_durs inp) sv = true -> size_ok inp -> (dbg = true -> no_overflow inp) ->
  exists st, compute_stats true dbg sv inp = Ok st /\
             forallb xq_is_fin (all_xq st) = true /\ existsb xq_is_nan (all_xq st) = false.
Proof.
  intros Ha Hs Hov. destruct (compute_stats_total dbg sv inp Ha Hs Hov) as (mids & tc & mn & mx & md & me & ->).
  eexists. split; [reflexivity|]. split; [|apply fin_not_nan]; apply assemble_all_fin.
Qed.

Lemma spec_meaning durs :
  (durs <> [] -> In (list_min durs) durs /\ Forall (fun y => list_min durs <= y) durs) /\
  (durs <> [] -> In (list_max durs) durs /\ Forall (fun y => y <= list_max durs) durs) /\
  Permutation (sort_vals durs) durs /\ StronglySorted N.le (sort_vals durs) /\
  (forall s, spec_fastest durs s = list_min durs / s) /\
  (forall s, spec_slowest durs s = list_max durs / s) /\
  (forall s, durs <> [] -> spec_median durs s =
     if Nat.even (length durs)
     then ((nth (length durs / 2 - 1) (sort_vals durs) 0 + nth (length durs / 2) (sort_vals durs) 0) / 2) / s
     else nth (length durs / 2) (sort_vals durs) 0 / s) /\
  (forall s, s * N.of_nat (length durs) <> 0 ->
     spec_mean durs s = sum_list durs / (s * N.of_nat (length durs))) /\
  (forall s, spec_median [] s = 0 /\ spec_mean [] s = 0 /\ spec_fastest [] s = 0 /\ spec_slowest [] s = 0).
Proof.
  split; [apply list_min_spec|]. split; [apply list_max_spec|].
  split; [apply sort_vals_perm|]. split; [apply sort_vals_sorted|].
  split; [reflexivity|]. split; [reflexivity|]. split; [|split; [|apply spec_nil]].
  - intros s Hne. rewrite (spec_median_nonempty _ _ Hne). unfold mid_lo, mid_hi.
    destruct (Nat.even (length durs)); reflexivity.
  - intros s Hc. unfold spec_mean. apply N.eqb_neq in Hc. rewrite Hc. reflexivity.
Qed.

(** The hypotheses of the theorems are satisfiable by non-trivial inputs: four
    samples with a tie at the minimum, two different admissible views. *)
Definition example_inputs : inputs :=
  {| in_size := 2; in_durs := [5; 3; 3; 9];
     in_allocs := [(1, {| ai_grow := tally_zero; ai_shrink := tally_zero;
                          ai_alloc := {| t_count := 4; t_size := 64 |}; ai_dealloc := tally_zero;
                          ai_max_count := 2; ai_max_size := 48 |})];
     in_counters := [ {| ci_counts := [10; 20; 30; 40]; ci_input := true |} ] |}.

Example hypotheses_satisfiable :
  admissibleb (in_durs example_inputs) [(1, 3); (2, 3); (0, 5); (3, 9)] = true /\
  admissibleb (in_durs example_inputs) [(2, 3); (1, 3); (0, 5); (3, 9)] = true /\
  size_ok example_inputs /\ no_overflow example_inputs /\
  (exists st, compute_stats true true [(2, 3); (1, 3); (0, 5); (3, 9)] example_inputs = Ok st /\
              st_time st = {| fastest := 1; slowest := 4; median := 2; mean := 2 |}).
Proof.
  split; [reflexivity|]. split; [reflexivity|].
  split; [left; discriminate|]. split; [split; reflexivity|].
  eexists. split; reflexivity.
Qed.
