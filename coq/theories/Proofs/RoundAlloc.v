(** C08: a sample reports exactly the operations its own
    thread performed between its clear and its snapshot. *)
From Coq Require Import List Arith Bool Lia.
From DivanV Require Import Model.Round Proofs.RoundBase Proofs.RoundInv Proofs.ListFacts.
Import ListNotations.

Lemma allocs_at_nouser : forall c i r p, userpos (ssize c r) (shp c) p = false -> allocs_at c i r p = [].
Proof. intros c i r p H. unfold allocs_at. rewrite H. reflexivity. Qed.
Lemma allocs_at_user : forall c i r p, userpos (ssize c r) (shp c) p = true -> allocs_at c i r p = allocs c i r p.
Proof. intros c i r p H. unfold allocs_at. rewrite H. reflexivity. Qed.

Lemma window_snoc : forall c i r a k,
  window c i r a (S k) = window c i r a k ++ allocs_at c i r (a + k).
Proof.
  intros. unfold window. rewrite seq_S, flat_map_app. cbn. rewrite app_nil_r. reflexivity.
Qed.

Definition tally_ok (c : config) (r i : nat) (th : thread) : Prop :=
  let n := ssize c r in
  match md th with
  | Run | Returned =>
    (n + 2 <= pc th -> tally th = window c i r (n + 2) (pc th - (n + 2))) /\
    (2 * n + 6 < pc th -> saved th = own_allocs c i r)
  | _ => True
  end.

(** One position further.  Position n+1 clears the tally, position 2n+6 saves
    it, any other appends what user code allocates there. *)
Lemma tally_ok_advance : forall c r i th th',
  md th = Run -> md th' = Run -> pc th' = S (pc th) ->
  tally th' = (if pc th =? ssize c r + 1 then [] else tally th ++ allocs_at c i r (pc th)) ->
  saved th' = (if pc th =? 2 * ssize c r + 6 then tally th else saved th) ->
  tally_ok c r i th -> tally_ok c r i th'.
Proof.
  intros c r i th th' M M' P T SV H. unfold tally_ok in *. rewrite M in H. rewrite M', P, T, SV.
  set (n := ssize c r) in *. destruct H as [A B]. split; intros G.
  - destruct (Nat.eqb_spec (pc th) (n + 1)) as [E|E].
    + rewrite E. replace (S (n + 1) - (n + 2)) with 0 by lia. reflexivity.
    + replace (S (pc th) - (n + 2)) with (S (pc th - (n + 2))) by lia.
      rewrite window_snoc, A by lia. do 2 f_equal. lia.
  - destruct (Nat.eqb_spec (pc th) (2 * n + 6)) as [E|E]; [|apply B; lia].
    rewrite A by lia. unfold own_allocs. fold n. f_equal. lia.
Qed.

Lemma tally_ok_wait : forall c r i th th',
  md th = Run -> md th' = Run -> pc th' = S (pc th) -> tally th' = tally th -> saved th' = saved th ->
  iswait (ssize c r) (pc th) = true ->
  tally_ok c r i th -> tally_ok c r i th'.
Proof.
  intros c r i th th' M M' P T SV W. apply tally_ok_advance; auto.
  - rewrite allocs_at_nouser, app_nil_r.
    + apply iswait_iff in W. destruct (Nat.eqb_spec (pc th) (ssize c r + 1)); [lia|exact T].
    + destruct (userpos (ssize c r) (shp c) (pc th)) eqn:U; auto. apply userpos_nowait in U. congruence.
  - apply iswait_iff in W. destruct (Nat.eqb_spec (pc th) (2 * ssize c r + 6)); [lia|exact SV].
Qed.

(** [exec] does to the tally what the position says. *)
Lemma exec_tally : forall c r a ops th,
  nth_error (prog (ssize c r) (shp c)) (pc th) = Some a ->
  tally (exec a ops th) =
    (if pc th =? ssize c r + 1 then [] else tally th ++ (if userpos (ssize c r) (shp c) (pc th) then ops else [])) /\
  saved (exec a ops th) = (if pc th =? 2 * ssize c r + 6 then tally th else saved th).
Proof.
  intros c r a ops th NA. rewrite <- (proj2 (prog_kind _ _ _ _ NA)).
  destruct (prog_at _ _ _ _ NA) as [L|L|L|L|L|L|L|L|L|k o L];
    cbn [exec tally saved next_pc faultable]; rewrite ?app_nil_r; split;
    match goal with |- context[?x =? ?y] => destruct (Nat.eqb_spec x y) end; try reflexivity; lia.
Qed.

Lemma tally_ok_tcase : forall c r i th b th' b',
  thread_ok (ssize c r) (shp c) (bgen b) th ->
  tcase c r i th b th' b' -> tally_ok c r i th -> tally_ok c r i th'.
Proof.
  intros c r i th b th' b' OK TC T.
  destruct TC;
    try (unfold tally_ok in *; cbn [pc md blk tally saved set_md set_blk set_rem next_pc] in *; rewrite ?M in *; exact T);
    try (unfold tally_ok; cbn [md set_md set_blk set_rem]; rewrite ?M; destruct (guard c); exact I).
  - apply (tally_ok_wait _ _ _ th); auto. apply (blocked_at_wait _ _ _ _ _ OK M BL).
  - apply (tally_ok_wait _ _ _ th); auto.
  - destruct (exec_tally _ _ _ (allocs c i r (pc th)) th NA) as [ET ES].
    apply (tally_ok_advance _ _ _ th); rewrite ?exec_md, ?exec_pc; auto.
Qed.

Definition TInv (c : config) (st : state) : Prop :=
  gp st = GRun -> forall i th, nth_error (ths st) i = Some th -> tally_ok c (round st) i th.

Lemma tinv_step : forall c st l st',
  fixed_code c -> Inv c st -> TInv c st -> step c st l = Some st' -> TInv c st'.
Proof.
  intros c st l st' GD [_ K] T ST. apply (step_cases _ _ _ _ (proj2 GD)) in ST.
  destruct ST; unfold TInv; cbn [gp round ths]; try discriminate.
  - intros _ i th Hi. apply nth_error_In in Hi. apply in_map_iff in Hi. destruct Hi as (y & <- & _).
    unfold tally_ok, fresh; cbn. split; intros; lia.
  - intros _ j y Hj. destruct (K G) as (_ & _ & C).
    destruct (nth_error_upd_inv _ _ _ _ _ _ Hj) as [[-> ->]|[NE Hj']]; [|apply T; auto].
    eapply tally_ok_tcase; eauto. apply C. eapply nth_error_In; eauto.
Qed.

Lemma tinv_reachable : forall c st,
  1 <= nthreads c -> fixed_code c -> reachable c st -> TInv c st.
Proof.
  intros c st T1 GD. apply (reachable_inv c (TInv c)).
  - unfold TInv. cbn. discriminate.
  - intros s l s' R TS ST. exact (tinv_step _ _ _ _ GD (inv_reachable _ _ T1 GD R) TS ST).
Qed.

(** The sample a thread hands back contains exactly its own operations of the
    timed section of this round. *)
Theorem own_allocs_reachable : forall c st i th,
  1 <= nthreads c -> fixed_code c -> reachable c st ->
  gp st = GRun -> nth_error (ths st) i = Some th -> md th = Returned ->
  result th = Some (own_allocs c i (round st)).
Proof.
  intros c st i th T1 GD R G N M.
  pose proof (tinv_reachable _ _ T1 GD R G i th N) as T.
  pose proof (inv_reachable _ _ T1 GD R) as [_ K]. destruct (K G) as (_ & _ & C).
  pose proof (returned_at_end _ _ _ _ (C th (nth_error_In _ _ N)) M) as PL. unfold plen in PL.
  unfold tally_ok in T. unfold result. rewrite M in *.
  destruct T as [_ B]. rewrite B by lia. reflexivity.
Qed.

Lemma own_allocs_calls : forall c i r,
  own_allocs c i r = flat_map (allocs c i r) (seq (ssize c r + 4) (ssize c r)).
Proof.
  intros c i r. unfold own_allocs, window. set (n := ssize c r).
  replace (n + 4) with (2 + (n + 2)) at 1 by lia.
  rewrite seq_app, flat_map_app. replace (n + 2 + 2) with (n + 4) by lia.
  rewrite seq_app, flat_map_app.
  assert (userpos n (shp c) (n + 2) = false /\ userpos n (shp c) (S (n + 2)) = false /\
          userpos n (shp c) (n + 4 + n) = false /\ userpos n (shp c) (S (n + 4 + n)) = false) as (U1 & U2 & U3 & U4)
    by (repeat split; apply not_true_iff_false; rewrite userpos_iff; lia).
  cbn [seq flat_map]. rewrite (allocs_at_nouser _ _ _ _ U1), (allocs_at_nouser _ _ _ _ U2), (allocs_at_nouser _ _ _ _ U3), (allocs_at_nouser _ _ _ _ U4). cbn [app]. rewrite app_nil_r.
  apply flat_map_ext_in. intros p HI. apply in_seq in HI. apply allocs_at_user.
  apply userpos_iff. lia.
Qed.

(** Nothing another thread does can show up: two configurations that agree on
    thread i's own operations in round r give thread i the same sample. *)
Lemma own_allocs_only_own : forall c c' i r,
  ssize c r = ssize c' r ->
  (forall p, allocs c i r p = allocs c' i r p) ->
  own_allocs c i r = own_allocs c' i r.
Proof.
  intros c c' i r SZ A. rewrite !own_allocs_calls, SZ. apply flat_map_ext_in. intros; apply A.
Qed.
