(** Which allocation blocks the table shows: the [is_zero] tests. *)
From DivanV Require Import Base.Res Model.Stats Proofs.Stats.
Local Open Scope N_scope.

Lemma set_is_zero_spec s :
  set_is_zero s = true <->
  xq_is_zero (fastest s) = true /\ xq_is_zero (slowest s) = true /\
  xq_is_zero (median s) = true /\ xq_is_zero (mean s) = true.
Proof. unfold set_is_zero. rewrite !andb_true_iff. tauto. Qed.

Lemma find_le_total (g : alloc_info -> N) allocs : forall i info,
  alist_find i allocs = Some info -> g info <= total_of g allocs.
Proof.
  induction allocs as [|[k v] r IH]; intros i info H; cbn [alist_find] in H; [discriminate|].
  unfold total_of in *. cbn [map sum_list snd].
  destruct (k =? i); [injection H as <-; lia|]. specialize (IH _ _ H). lia.
Qed.

Lemma info_figure_zero (f : option alloc_info -> N) (g : alloc_info -> N) allocs s :
  f None = 0 -> (forall i, f (Some i) = g i) ->
  total_of g allocs = 0 -> f (sample_alloc_info allocs s) = 0.
Proof.
  intros HN HS HT. destruct (sample_alloc_info allocs s) as [i|] eqn:E; [|exact HN].
  destruct s as [[idx d]|]; cbn [sample_alloc_info] in E; [|discriminate].
  destruct (idx <? 2 ^ 32); [|discriminate]. pose proof (find_le_total g allocs idx i E).
  rewrite HS. lia.
Qed.

Lemma column_is_zero inp sv mids tc (f : option alloc_info -> N) (g : alloc_info -> N) :
  f None = 0 -> (forall i, f (Some i) = g i) ->
  set_is_zero (column true inp sv mids tc f (total_of g (in_allocs inp)))
  = (total_of g (in_allocs inp) =? 0).
Proof.
  intros HN HS. unfold set_is_zero, column. cbn [fastest slowest median mean].
  fold (per_size (total_of g (in_allocs inp)) (xq_of_N (N.max tc 1))).
  rewrite !per_size_val, med_entry_val by lia. cbn [xq_is_zero].
  (* the mean is total / count; a zero total leaves no figure to show anywhere *)
  destruct (total_of g (in_allocs inp) =? 0) eqn:ET; [|apply andb_false_r].
  apply N.eqb_eq in ET. rewrite !(info_figure_zero f g _ _ HN HS ET). reflexivity.
Qed.

(** [C05_printed_blocks]: the blocks the table shows for the statistics of
    [compute_stats] are exactly those with a non-zero figure in some recorded
    allocation info — whichever samples happen to be fastest and slowest. *)
Theorem printed_blocks_spec dbg sv inp st :
  compute_stats true dbg sv inp = Ok st -> printed_blocks st = blocks_spec inp.
Proof.
  intros H. apply compute_stats_inv in H.
  destruct H as (tc & td & mids & mn & mx & md & _ & _ & _ & _ & _ & _ & ->).
  unfold printed_blocks, blocks_spec, assemble. cbn [st_max_size st_tallies]. rewrite map_map.
  rewrite (column_is_zero _ _ _ _ max_size_of ai_max_size) by (intros; reflexivity).
  f_equal. apply map_ext. intros op. cbn [fst snd].
  rewrite (column_is_zero _ _ _ _ (fun o => t_count (tally_of op o)) (fun i => t_count (ai_tally op i))),
          (column_is_zero _ _ _ _ (fun o => t_size (tally_of op o)) (fun i => t_size (ai_tally op i)))
    by (intros; reflexivity).
  reflexivity.
Qed.

(** The scenario of an interior allocation: three samples, only the one of
    median time allocates; fastest and slowest columns are 0, the blocks are shown. *)
Example interior_allocation_is_shown :
  let a := {| ai_grow := tally_zero; ai_shrink := tally_zero; ai_alloc := {| t_count := 1; t_size := 64 |};
              ai_dealloc := {| t_count := 1; t_size := 64 |}; ai_max_count := 1; ai_max_size := 64 |} in
  let inp := {| in_size := 1; in_durs := [4001; 9001; 6001]; in_allocs := [(2, a)]; in_counters := [] |} in
  exists st, compute_stats true true [(0, 4001); (2, 6001); (1, 9001)] inp = Ok st /\
             xq_is_zero (fastest (st_max_size st)) = true /\ xq_is_zero (slowest (st_max_size st)) = true /\
             printed_blocks st = [true; false; false; true; true].
Proof. eexists. split; [reflexivity|]. lazy. repeat split. Qed.
