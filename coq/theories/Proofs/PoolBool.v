(** The boolean invariants evaluated by the explorer (ocaml/pool.ml, mode
    pool-bfs) on small scripts hold in every reachable state of every script. *)

From DivanV Require Import Model.Pool Proofs.Pool Proofs.PoolCalls Proofs.PoolViews Proofs.PoolSlots.
From Coq Require Import Arith Lia List Bool.
Import ListNotations.
Import PoolM.

Lemma b_rc s : Inv s -> inv_rc s = true.
Proof.
  intro I. pose proof (I_rc s I) as R. unfold rc_ok in R. unfold inv_rc.
  destruct (cst s); repeat (apply andb_true_intro; split);
    try (apply Nat.eqb_eq; lia); try (apply Nat.leb_le; lia).
Qed.

Lemma b_pre_current s : Inv s -> inv_pre_current s = true.
Proof.
  intro I. unfold inv_pre_current. apply forallb_forall. intros w Hw.
  pose proof (I_wf s I) as W. rewrite Forall_forall in W. specialize (W _ Hw).
  destruct w; cbn in *; auto; try (destruct W as [-> ->]; now rewrite Nat.eqb_refl).
  apply Nat.leb_le. exact W.
Qed.

Lemma b_alive s : Inv s -> inv_alive s = true.
Proof. intro I. unfold inv_alive. rewrite (I_alive s I). apply eqb_reflx. Qed.

Lemma b_wakeup s : Inv s -> inv_wakeup s = true.
Proof.
  intro I. pose proof (I_wake s I) as W. unfold wake_ok in W. unfold inv_wakeup.
  destruct (cst s); auto.
  destruct (Nat.eqb (rc s) 0) eqn:E; cbn; auto. destruct (token s) eqn:T; cbn; auto.
  apply Nat.eqb_eq in E. apply existsb_exists.
  apply Exists_exists in W; auto. destruct W as (w & Hin & ->).
  exists (WUnpark (cur s)). split; auto. cbn. apply Nat.eqb_refl.
Qed.

Lemma b_exit s : Inv s -> inv_exit s = true.
Proof.
  intro I. unfold inv_exit.
  assert (X : cst s <> CDone -> forallb (fun w => negb (is_wexit w)) (ws s) = true).
  { intro N. apply forallb_forall. intros w Hw.
    pose proof (I_exit s I N) as F. rewrite Forall_forall in F. specialize (F _ Hw). now destruct w. }
  destruct (cst s); auto; apply X; discriminate.
Qed.

Lemma b_sent s : Inv s -> inv_sent s = true.
Proof.
  intro I. unfold inv_sent. apply forallb_forall. intros k Hk. apply in_seq in Hk.
  destruct k as [|j]; [lia|]. cbn.
  destruct (nth_error (ws s) j) as [w|] eqn:E; auto.
  destruct (any_pre w) eqn:P; auto. apply Nat.ltb_lt. eapply (I_sent s I); eauto.
Qed.

Lemma nodupb_intro l : NoDup l -> nodupb l = true.
Proof.
  induction 1 as [|x l H N IH]; cbn; auto. rewrite IH, andb_true_r.
  destruct (vmem x l) eqn:E; auto. apply vmem_In in E. contradiction.
Qed.

Lemma b_calls scr s : Inv2 scr s -> inv_calls s = true.
Proof.
  intro J. unfold inv_calls. repeat (apply andb_true_intro; split).
  - apply nodupb_intro. apply J.
  - apply forallb_forall. intros d Hd. apply Nat.leb_le. now apply (J_le _ _ J).
  - apply forallb_forall. intros d Hd. apply vmem_In. now apply (J_pan _ _ J).
  - destruct (in_broadcast (cst s)) eqn:B; auto.
    apply forallb_forall. intros i _.
    pose proof (J_cur _ _ J B i) as H.
    destruct (vmem (cur s, i) (calls s)) eqn:A, (called s i) eqn:C; auto; exfalso.
    + apply vmem_In in A. apply H in A. discriminate.
    + assert (X : In (cur s, i) (calls s)) by now apply H. apply vmem_In in X. congruence.
Qed.

Lemma b_slots s : InvS s -> inv_slots s = true.
Proof.
  intro SS. unfold inv_slots. destruct (in_broadcast (cst s)) eqn:B; auto.
  rewrite (S_cur _ SS B) at 1. apply slots_eqb_refl.
Qed.

Lemma b_views c s : Inv s -> InvV c s -> inv_views c s = true.
Proof.
  intros I V. unfold inv_views. destruct (in_broadcast (cst s)) eqn:B; auto.
  apply andb_true_intro. split.
  - destruct (caller_ran (cst s)) eqn:R; auto. apply vmem_In. now apply (V_caller _ _ V).
  - apply forallb_forall. intros k Hk. apply in_seq in Hk. destruct k as [|j]; [lia|].
    destruct (called s (S j)) eqn:C; auto.
    cbn [getw getview].
    assert (W : forall b, at_clone_or_dec s j b -> vmem (cur s, S j) (nth j (wviews s) []) = true).
    { intros b H. apply vmem_In.
      assert (b = cur s) as <-.
      { destruct H as [H|H]; pose proof (wf_at s _ _ I H) as X; cbn in X; tauto. }
      now apply (V_worker _ _ V). }
    assert (L : (forall b, ~ at_clone_or_dec s j b) ->
                (if is_release (c_dec c) then vmem (cur s, S j) (lview s) else true) = true).
    { intro N. destruct (is_release (c_dec c)) eqn:Rl; auto.
      destruct (V_loc _ _ V Rl B j C) as [(b0 & H)|H]; [now destruct (N b0)|now apply vmem_In]. }
    destruct (nth_error (ws s) j) as [[]|] eqn:E; try (apply L; intros b0 [H|H]; congruence).
    + apply (W b). now left.
    + apply (W b). now right.
Qed.

Lemma b_returned c scr s : Inv2 scr s -> InvV c s -> InvS s -> inv_returned c s = true.
Proof.
  intros J V SS. unfold inv_returned. apply andb_true_intro. split.
  - apply forallb_forall. intros r Hr.
    pose proof (J_ret _ _ J) as Rt. rewrite Forall_forall in Rt. destruct (Rt _ Hr) as [R1 R2].
    pose proof (S_ret _ SS) as Sr. rewrite Forall_forall in Sr. specialize (Sr _ Hr).
    apply andb_true_intro; split; [apply andb_true_intro; split; [apply andb_true_intro; split|]|].
    + apply once_per_index_intro; auto. apply J.
    + destruct (is_release (c_dec c)) eqn:Rl; auto. destruct (is_acquire (c_load c)) eqn:Aq; auto. cbn.
      pose proof (V_ret _ _ V Rl Aq) as Vr. rewrite Forall_forall in Vr.
      apply view_has_all_intro. now apply Vr.
    + rewrite Sr. apply slots_eqb_refl.
    + destruct (in_broadcast (cst s)); [apply Nat.ltb_lt|apply Nat.leb_le]; auto.
  - apply Nat.eqb_eq. apply J.
Qed.

Theorem inv_all_reachable c scr s : good c -> reachable c scr s -> inv_all c s = true.
Proof.
  intros G R.
  pose proof (inv_reachable _ _ _ G R) as I. pose proof (inv2_reachable _ _ _ G R) as J.
  pose proof (invv_reachable _ _ _ G R) as V. pose proof (invs_reachable _ _ _ G R) as SS.
  unfold inv_all.
  rewrite (b_rc s I), (b_pre_current s I), (b_alive s I), (b_wakeup s I), (b_exit s I), (I_bad s I),
    (proj2 (Nat.eqb_eq _ _) (I_wv s I)), (b_sent s I), (b_calls scr s J), (b_slots s SS), (b_views c s I V),
    (b_returned c scr s J V SS).
  reflexivity.
Qed.
