(** Model/Loop.v: the model never panics on well-formed
    histories while the tuned size stays below 2^31 ([loop_total]). *)

From DivanV Require Import Base.Res Model.Timestamp Model.Loop Proofs.Timestamp Proofs.Loop Proofs.LoopProps.
Local Open Scope N_scope.

Definition wf_raw (r : raw) : Prop := r_start r < 2 ^ 64 /\ r_end r < 2 ^ 64.

Definition wf_round (o : round_obs) : Prop := o <> [] /\ forall r, In r o -> wf_raw r.

Lemma tsc_total b a f : f <> 0 -> a < 2 ^ 64 -> b < 2 ^ 64 -> tsc_duration b a f = Ok (dur_ps f b a).
Proof. intros Hf Ha Hb. apply (tsc_exact a b f Hf Ha Hb). Qed.

Lemma map_res_total c obs : c_freq c <> 0 -> (forall r, In r obs -> wf_raw r) ->
  map_res (raw_duration c) obs = Ok (map (dur_of c) obs).
Proof.
  intros Hf. induction obs as [|r obs IH]; intros Hw; cbn [map_res map]; [reflexivity|].
  destruct (Hw r (or_introl eq_refl)) as [Hs He]. unfold raw_duration at 1.
  rewrite (tsc_total _ _ _ Hf Hs He), IH by (intros x Hx; apply Hw; right; exact Hx). reflexivity.
Qed.

Lemma nmax_list_lt l b : 0 < b -> (forall x, In x l -> x < b) -> nmax_list l < b.
Proof.
  intros Hb. induction l as [|x l IH]; intros H; [exact Hb|].
  apply N.max_lub_lt; [apply H; left; reflexivity|apply IH; intros y Hy; apply H; right; exact Hy].
Qed.

Lemma latest_end_lt obs : (forall r, In r obs -> wf_raw r) -> latest_end obs < 2 ^ 64.
Proof.
  intros Hw. apply nmax_list_lt; [reflexivity|]. intros x Hx. apply in_map_iff in Hx.
  destruct Hx as [r [<- Hin]]. apply (Hw r Hin).
Qed.

Lemma size_nonzero c pre : zero_case c = false -> mode_size (mode_of c pre) <> 0.
Proof.
  intros Hz. unfold mode_of. destruct (c_size c) as [s|] eqn:Es.
  - apply (has_samples_size c s); [apply zero_case_false, Hz|exact Es].
  - destruct (first_pass c pre); apply N.neq_sym, N.lt_neq, pow2_pos.
Qed.

Lemma tune_branch_total c st slow :
  (forall k, s_mode st = MTune k -> prec_used c <> 0 /\ (slow / prec_used c <= 100 -> k < 2 ^ 31)) ->
  exists st1, tune_branch c st slow = Ok st1.
Proof.
  intros Hg. destruct (s_mode st) as [|k|k] eqn:Hm.
  1, 3: rewrite tune_branch_not_tune by (rewrite Hm; reflexivity); eexists; reflexivity.
  rewrite (tune_branch_tune c st slow k Hm). destruct (Hg k eq_refl) as [Hp Hov].
  apply N.eqb_neq in Hp. rewrite Hp.
  destruct (N.leb_spec (slow / prec_used c) 100) as [Hle|_]; [|eexists; reflexivity].
  assert (Hlt : k * 2 <? 2 ^ 32 = true).
  { apply N.ltb_lt. change (2 ^ 32) with (2 ^ 31 * 2). apply N.mul_lt_mono_pos_r; [reflexivity|exact (Hov Hle)]. }
  rewrite Hlt. eexists. reflexivity.
Qed.

Lemma round_step_total c init pre obs :
  c_test c = false -> zero_case c = false ->
  c_freq c <> 0 -> init < 2 ^ 64 -> wf_round obs ->
  (c_size c = None -> c_prec c <> 0 /\ (first_pass c (pre ++ [obs]) = None -> pow2 (length pre) < 2 ^ 31)) ->
  exists st', round_step c init (spec_state c init pre) obs = Ok st'.
Proof.
  intros Ht Hz Hf Hi [Hne Hw] Hg. unfold round_step.
  destruct obs as [|r0 obs0] eqn:Eo; [contradiction|]. rewrite <- Eo in *. clear Eo r0 obs0 Hne.
  rewrite round_body_eq, (map_res_total c obs Hf Hw). cbn [bind].
  set (size := mode_size (s_mode (spec_state c init pre))).
  destruct (tune_branch_total c (with_round (spec_state c init pre) size) (slowest_of c obs)) as [st1 ->].
  { cbn [with_round spec_state s_mode]. unfold mode_of. intros k Hk.
    destruct (c_size c) eqn:Es; [discriminate|]. destruct (first_pass c pre) eqn:Ef; [discriminate|].
    injection Hk as <-. rewrite (prec_used_tuned c Ht Es). destruct (Hg eq_refl) as [Hp Hov].
    split; [exact Hp|]. intros Hle. apply Hov. rewrite first_pass_snoc, Ef. unfold passes.
    apply N.leb_le in Hle. rewrite N.ltb_antisym, Hle. reflexivity. }
  cbn [bind]. rewrite (proj2 (N.eqb_neq size 0) (size_nonzero c pre Hz)), Bool.andb_false_r.
  destruct (c_skip c); [eexists; reflexivity|].
  rewrite (tsc_total _ _ _ Hf Hi (latest_end_lt obs Hw)). eexists. reflexivity.
Qed.

Lemma run_total c init :
  c_test c = false -> zero_case c = false -> c_freq c <> 0 -> init < 2 ^ 64 ->
  forall rest pre,
  (forall o, In o rest -> wf_round o) ->
  (c_size c = None -> c_prec c <> 0 /\
     forall i, (i < length rest)%nat -> first_pass c (pre ++ firstn (S i) rest) = None ->
               pow2 (length pre + i) < 2 ^ 31) ->
  exists out, run c init (spec_state c init pre) rest = Ok out.
Proof.
  intros Ht Hz Hf Hi. induction rest as [|obs rest IH]; intros pre Hw Hg; cbn [run];
    destruct (loop_cond c (spec_state c init pre)).
  1, 2, 4: eexists; reflexivity.
  rewrite Ht.
  destruct (round_step_total c init pre obs Ht Hz Hf Hi (Hw obs (or_introl eq_refl))) as [st' Hst'].
  { intros Hs. destruct (Hg Hs) as [Hp Hov]. split; [exact Hp|].
    specialize (Hov O (Nat.lt_0_succ _)). rewrite Nat.add_0_r in Hov. exact Hov. }
  rewrite Hst'. cbn [bind]. apply (round_step_spec c init pre obs st' Ht) in Hst'. subst st'.
  apply IH.
  - intros o Ho. apply Hw. right. exact Ho.
  - intros Hs. destruct (Hg Hs) as [Hp Hov]. split; [exact Hp|]. intros i Hil Hfp.
    rewrite last_length, Nat.add_succ_comm. apply Hov; [apply -> Nat.succ_lt_mono; exact Hil|].
    cbn [firstn]. rewrite <- app_assoc in Hfp. exact Hfp.
Qed.

(** No panic: bench mode, timestamps are u64 values, the frequency is not 0
    (NonZeroU64), every round brought back at least one sample, and — when the
    size is tuned — the precision is not 0 and every round that did not pass
    the threshold had a size below 2^31 (so that doubling fits u32). *)
Theorem loop_total c init hist :
  c_test c = false -> c_freq c <> 0 -> init < 2 ^ 64 ->
  (forall o, In o hist -> wf_round o) ->
  (c_size c = None -> c_prec c <> 0 /\
     forall i, (i < length hist)%nat -> first_pass c (firstn (S i) hist) = None -> pow2 i < 2 ^ 31) ->
  exists out, bench_loop c init hist = Ok out.
Proof.
  intros Ht Hf Hi Hw Hg. destruct (zero_case c) eqn:Hz.
  - rewrite (bench_loop_zero c init hist Hz). eexists. reflexivity.
  - rewrite (bench_loop_run c init hist Hz), (spec_state_nil c init Ht).
    apply (run_total c init Ht Hz Hf Hi hist [] Hw). exact Hg.
Qed.

(** In particular: at most 31 rounds can never overflow. *)
Corollary loop_total_31 c init hist :
  c_test c = false -> c_freq c <> 0 -> init < 2 ^ 64 ->
  (forall o, In o hist -> wf_round o) -> (c_size c = None -> c_prec c <> 0) ->
  (length hist <= 31)%nat ->
  exists out, bench_loop c init hist = Ok out.
Proof.
  intros Ht Hf Hi Hw Hp Hl. apply loop_total; try assumption.
  intros Hs. split; [apply Hp; exact Hs|]. intros i Hil _.
  apply N.pow_lt_mono_r; [reflexivity|]. apply (lt_to_nat i 31). exact (Nat.lt_le_trans _ _ _ Hil Hl).
Qed.

(** The guard is needed: 32 rounds that never pass the threshold overflow the
    u32 doubling. *)
Example doubling_overflows :
  bench_loop ex_tune_cfg 0 (repeat [ex_raw 0 1] 32) = Panic Overflow.
Proof. vm_compute. reflexivity. Qed.
