(** Proofs about Model/SplitVec.v: insertion keeps the partition invariant, the
    first half in insertion order and the multiset of the second half. *)
From Coq Require Import Permutation.
From DivanV Require Import Base.Res Model.SplitVec Proofs.ListFacts.

Lemma list_eqb_eq {A : Type} (eqb : A -> A -> bool) :
  (forall x y, eqb x y = true <-> x = y) -> forall a b, list_eqb eqb a b = true <-> a = b.
Proof.
  intros Heq. induction a as [|x a IH]; intros [|y b]; cbn [list_eqb]; split; intros H;
    try reflexivity; try discriminate.
  - apply andb_true_iff in H. destruct H as [H1 H2]. apply Heq in H1. apply IH in H2. congruence.
  - injection H as -> ->. apply andb_true_iff. split; [apply Heq | apply IH]; reflexivity.
Qed.

Lemma list_eqb_refl {A : Type} (eqb : A -> A -> bool) (l : list A) :
  (forall x, eqb x x = true) -> list_eqb eqb l l = true.
Proof.
  intros H. induction l as [|x l IH]; cbn [list_eqb]; [reflexivity|].
  rewrite H, IH. reflexivity.
Qed.

Definition sv_wf {A : Type} (sv : split_vec A) : Prop :=
  (sv_split sv <= length (sv_items sv))%nat.

(** [sv_of F R] is the vector with first half [F] and second half [R]; every
    well-formed value has this form, and the operations are described on it. *)
Definition sv_of {A : Type} (F R : list A) : split_vec A :=
  {| sv_items := F ++ R; sv_split := length F |}.

Lemma sv_wf_repr {A : Type} (sv : split_vec A) : sv_wf sv -> sv = sv_of (sv_before sv) (sv_after sv).
Proof.
  destruct sv as [items n]. unfold sv_wf, sv_of, sv_before, sv_after. cbn [sv_items sv_split]. intros Hwf.
  rewrite firstn_skipn, (firstn_length_le items Hwf). reflexivity.
Qed.

Lemma sv_before_of {A : Type} (F R : list A) : sv_before (sv_of F R) = F.
Proof. apply firstn_app_exact. Qed.

Lemma sv_after_of {A : Type} (F R : list A) : sv_after (sv_of F R) = R.
Proof. apply skipn_app_exact. Qed.

Lemma sv_of_wf {A : Type} (F R : list A) : sv_wf (sv_of F R).
Proof. unfold sv_wf, sv_of. cbn [sv_items sv_split]. rewrite app_length. apply Nat.le_add_r. Qed.

Lemma sv_split_index_ok {A : Type} (sv : split_vec A) :
  sv_wf sv -> sv_split_index sv = Ok (sv_split sv).
Proof.
  intros Hwf. unfold sv_split_index. rewrite (proj2 (Nat.leb_le _ _) Hwf). reflexivity.
Qed.

Lemma sv_split_index_panics {A : Type} (sv : split_vec A) :
  ~ sv_wf sv -> sv_split_index sv = Panic OutOfBounds.
Proof.
  intros Hwf. unfold sv_split_index.
  destruct (Nat.leb (sv_split sv) (length (sv_items sv))) eqn:E; [|reflexivity].
  apply Nat.leb_le in E. contradiction.
Qed.

(** What the second half becomes when a value is inserted before the split:
    its first element moves to the end. *)
Definition rotate {A : Type} (R : list A) : list A :=
  match R with [] => [] | moved :: rest => rest ++ [moved] end.

Lemma rotate_perm {A : Type} (R : list A) : Permutation (rotate R) R.
Proof. destruct R; [constructor|]. apply Permutation_sym, Permutation_cons_append. Qed.

Lemma sv_insert_of {A : Type} (F R : list A) (v : A) (after_split : bool) :
  sv_insert (sv_of F R) v after_split =
  Ok (if after_split then sv_of F (R ++ [v]) else sv_of (F ++ [v]) (rotate R)).
Proof.
  unfold sv_insert. rewrite (sv_split_index_ok _ (sv_of_wf F R)). cbn [bind sv_of sv_items sv_split].
  destruct after_split.
  - unfold sv_of. rewrite app_assoc. reflexivity.
  - unfold sv_of. rewrite skipn_app_exact, app_length, Nat.add_1_r.
    destruct R as [|moved rest]; cbn [rotate].
    + rewrite !app_nil_r. reflexivity.
    + rewrite firstn_app_exact, <- app_assoc. reflexivity.
Qed.

Lemma sv_insert_spec {A : Type} (sv : split_vec A) (v : A) (after_split : bool) :
  sv_wf sv ->
  exists sv',
    sv_insert sv v after_split = Ok sv' /\
    sv_wf sv' /\
    length (sv_items sv') = S (length (sv_items sv)) /\
    sv_before sv' = sv_before sv ++ (if after_split then [] else [v]) /\
    Permutation (sv_after sv') (sv_after sv ++ (if after_split then [v] else [])).
Proof.
  intros Hwf. generalize (sv_wf_repr sv Hwf). generalize (sv_before sv) (sv_after sv). intros F R ->.
  rewrite sv_insert_of. eexists. split; [reflexivity|].
  destruct after_split; rewrite sv_before_of, sv_after_of, app_nil_r.
  - split; [apply sv_of_wf|]. split; [|split; reflexivity].
    cbn [sv_of sv_items]. rewrite app_assoc, app_length, Nat.add_1_r. reflexivity.
  - split; [apply sv_of_wf|]. split; [|split; [reflexivity | apply rotate_perm]].
    cbn [sv_of sv_items]. rewrite !app_length, (Permutation_length (rotate_perm R)), Nat.add_1_r.
    reflexivity.
Qed.

Lemma sv_empty_wf {A : Type} : sv_wf (@sv_empty A).
Proof. apply (sv_of_wf [] []). Qed.

Definition inserted_before {A : Type} (ops : list (A * bool)) : list A :=
  map fst (filter (fun o => negb (snd o)) ops).
Definition inserted_after {A : Type} (ops : list (A * bool)) : list A :=
  map fst (filter (fun o => snd o) ops).

(** The halves of a history that begins with entries all carrying the same flag. *)
Lemma inserted_tagged_app {A B : Type} (c : bool -> bool) (g : B -> A) (b : bool) (l : list B) (rest : list (A * bool)) :
  map fst (filter (fun o => c (snd o)) (map (fun x => (g x, b)) l ++ rest))
  = (if c b then map g l else []) ++ map fst (filter (fun o => c (snd o)) rest).
Proof.
  induction l as [|x l IH]; cbn [map filter snd app]; [destruct (c b); reflexivity|].
  destruct (c b); cbn [map fst app]; rewrite IH; reflexivity.
Qed.

Lemma sv_insert_all_spec {A : Type} (ops : list (A * bool)) : forall (sv : split_vec A),
  sv_wf sv ->
  exists sv',
    sv_insert_all sv ops = Ok sv' /\
    sv_wf sv' /\
    length (sv_items sv') = (length (sv_items sv) + length ops)%nat /\
    sv_before sv' = sv_before sv ++ inserted_before ops /\
    Permutation (sv_after sv') (sv_after sv ++ inserted_after ops).
Proof.
  induction ops as [|[v b] ops IH]; intros sv Hwf.
  - exists sv. unfold inserted_before, inserted_after. cbn [sv_insert_all filter map length].
    rewrite !app_nil_r, Nat.add_0_r. repeat split; [exact Hwf | apply Permutation_refl].
  - cbn [sv_insert_all].
    destruct (sv_insert_spec sv v b Hwf) as (sv1 & -> & Hwf1 & Hlen1 & Hb1 & Ha1). cbn [bind].
    destruct (IH sv1 Hwf1) as (sv2 & Hall & Hwf2 & Hlen2 & Hb2 & Ha2).
    exists sv2. split; [exact Hall|]. split; [exact Hwf2|].
    split; [rewrite Hlen2, Hlen1; cbn [length]; apply Nat.add_succ_comm|].
    unfold inserted_before, inserted_after in *. cbn [filter snd]. split.
    + rewrite Hb2, Hb1, <- app_assoc. destruct b; reflexivity.
    + apply (Permutation_trans Ha2), (Permutation_trans (Permutation_app_tail _ Ha1)).
      rewrite <- app_assoc. destruct b; apply Permutation_refl.
Qed.

Lemma sv_build_spec {A : Type} (ops : list (A * bool)) :
  exists sv,
    sv_insert_all sv_empty ops = Ok sv /\
    sv_wf sv /\
    length (sv_items sv) = length ops /\
    sv_before sv = inserted_before ops /\
    Permutation (sv_after sv) (inserted_after ops).
Proof. exact (sv_insert_all_spec ops sv_empty sv_empty_wf). Qed.

(** The crate's own unit test [mixed] as an example (the second half really is
    reordered: ["456"; "xyz"]). *)
Example sv_mixed_example :
  sv_insert_all sv_empty [(1%N, false); (2%N, true); (3%N, false); (4%N, true); (5%N, false)]
  = Ok {| sv_items := [1; 3; 5; 4; 2]%N; sv_split := 3 |}.
Proof. reflexivity. Qed.
