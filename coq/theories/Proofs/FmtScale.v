(** Lemmas about Model/FmtScale.v: byte sizes / throughputs over exact
    rationals follow the truncation rule with 1000^k / 1024^k prefixes; the
    zero / inf corners; meaning of the boolean specifications. *)
From DivanV Require Import Base.Res Generated.Consts Model.FmtF64 Model.FmtDuration Model.FmtScale
  Proofs.FmtF64 Proofs.FmtDuration Proofs.ListFacts.
Local Open Scope N_scope.

Definition base_of (binary : bool) : N := if binary then 1024 else 1000.

Lemma le_5_cases : forall i, i <= 5 -> i = 0 \/ i = 1 \/ i = 2 \/ i = 3 \/ i = 4 \/ i = 5.
Proof. intros. lia. Qed.

Lemma scale_tables : forall binary i, i <= 5 ->
  nth_res (starts_of binary) i = Ok (base_of binary ^ i) /\
  nth_error (combine [0; 1; 2; 3; 4; 5] (spec_starts binary)) (N.to_nat i) = Some (i, base_of binary ^ i).
Proof.
  intros binary i Hi.
  destruct (le_5_cases i Hi) as [->|[->|[->|[->|[->| ->]]]]]; destruct binary; split; reflexivity.
Qed.

Lemma starts_walk_eq : forall tbl a b i,
  starts_walk tbl a b i = scale_walk (map (fun t => t * b) tbl) a i.
Proof. induction tbl as [|t r IH]; intros a b i; cbn [starts_walk map scale_walk]; now rewrite ?IH. Qed.

Lemma scale_idx_bounds : forall binary a b,
  let i := scale_idx (starts_of binary) (VQ a b) in
  i <= 5 /\ (i <> 0 -> base_of binary ^ i * b <= a) /\ (i <> 5 -> a < base_of binary ^ (i + 1) * b).
Proof.
  intros binary a b. cbv zeta. remember (scale_idx (starts_of binary) (VQ a b)) as i eqn:E.
  destruct binary; cbn [scale_idx starts_of scale_starts_binary scale_starts_decimal tl starts_walk] in E;
  repeat match type of E with context [a <? ?c * b] => destruct (N.ltb_spec a (c * b)) end;
  subst i; cbn [base_of]; lia.
Qed.

Lemma spec_scale_by_index : forall binary a b,
  nth_error (combine [0; 1; 2; 3; 4; 5] (spec_starts binary)) (N.to_nat (scale_idx (starts_of binary) (VQ a b)))
  = Some (spec_scale binary a b).
Proof.
  intros binary a b. unfold spec_scale, scale_idx. rewrite starts_walk_eq, <- (N.sub_0_r (scale_walk _ a 0)).
  set (key := fun ks : N * N => snd ks * b). set (us := tl (combine [0; 1; 2; 3; 4; 5] (spec_starts binary))).
  change (fold_left _ ?l (0, 1)) with (fold_left (pick key a) l (0, 1)).
  replace (combine _ _) with ((0, 1) :: us) by now destruct binary.
  replace (map _ (tl (starts_of binary))) with (map key us) by now destruct binary.
  cbn [fold_left]. rewrite pick_same. apply walk_pick.
  unfold us, key. destruct binary; cbn [spec_starts map combine tl snd];
  repeat (constructor; [repeat (constructor; [apply N.mul_le_mono_r, N.pow_le_mono_r; discriminate|]); constructor|]);
  constructor.
Qed.

Lemma scale_choice : forall binary a b,
  let i := scale_idx (starts_of binary) (VQ a b) in
  i <= 5 /\ spec_scale binary a b = (i, base_of binary ^ i) /\
  nth_res (starts_of binary) i = Ok (base_of binary ^ i).
Proof.
  intros binary a b i. destruct (scale_idx_bounds binary a b) as [Hi _]. fold i in Hi.
  destruct (scale_tables binary i Hi) as [Hn Hc].
  pose proof (spec_scale_by_index binary a b) as E. fold i in E. rewrite Hc in E.
  injection E as <-. auto.
Qed.

(** [spec_scale] is the largest prefix 1000^i / 1024^i (i <= 5) not exceeding
    the value; values below 1 use no prefix. *)
Lemma spec_scale_largest : forall binary a b,
  let '(i, st) := spec_scale binary a b in
  let base := if binary then 1024 else 1000 in
  i <= 5 /\ st = base ^ i /\ (i <> 0 -> st * b <= a) /\ (i <> 5 -> a < base ^ (i + 1) * b).
Proof.
  intros binary a b. destruct (scale_choice binary a b) as [_ [-> _]].
  destruct (scale_idx_bounds binary a b) as [Hi Hab]. split; [exact Hi|]. split; [reflexivity|exact Hab].
Qed.

Lemma base_pow_nz : forall binary i, base_of binary ^ i <> 0.
Proof. intros. apply N.pow_nonzero. now destruct binary. Qed.

Lemma sfmt_suffix_spec : forall f i, i <= 5 -> sfmt_suffix f i = Ok (spec_suffix f i).
Proof.
  intros f i Hi. unfold sfmt_suffix, spec_suffix.
  assert (Hp : prefix_letter i = Ok (nth (N.to_nat i) [[]; [75]; [77]; [71]; [84]; [80]] []))
    by (destruct (le_5_cases i Hi) as [->|[->|[->|[->|[->| ->]]]]]; reflexivity).
  rewrite Hp. now destruct f.
Qed.

(** No suffix has a space, an 'N' or an 'f'. *)
Lemma spec_suffix_bytes : forall f i x, i <= 5 -> In x (spec_suffix f i) ->
  x <> ch_space /\ x <> 78 /\ x <> 102.
Proof.
  intros f i x Hi Hx.
  assert (H : forallb (fun x => negb ((x =? 32) || (x =? 78) || (x =? 102))) (spec_suffix f i) = true)
    by (destruct (le_5_cases i Hi) as [->|[->|[->|[->|[->| ->]]]]]; destruct f as [[|]|[|]| | |]; reflexivity).
  apply (proj1 (forallb_forall _ _) H) in Hx. unfold ch_space. lia.
Qed.

Lemma spec_suffix_no_space : forall f i, i <= 5 -> notin ch_space (spec_suffix f i).
Proof. intros f i Hi. apply Forall_forall. intros x Hx. now apply (spec_suffix_bytes f i). Qed.

Lemma spec_suffix_letters : forall f i, i <= 5 ->
  ~ In 78 (spec_suffix f i) /\ ~ In 102 (spec_suffix f i).
Proof. intros f i Hi. split; intros H; apply (spec_suffix_bytes f i _ Hi) in H; lia. Qed.

Lemma fmt_scaled_spec : forall f sig a b, b <> 0 -> sig + 1 < 2 ^ 64 ->
  fmt_scaled f sig (VQ a b) = Ok (spec_scaled_string f sig a b).
Proof.
  intros f sig a b Hb Hsig. unfold fmt_scaled, spec_scaled_string.
  destruct (scale_choice (sfmt_binary f) a b) as [Hi [Hspec Hnth]].
  rewrite Hspec, Hnth. cbn [bind].
  rewrite sfmt_suffix_spec by exact Hi. cbn [bind].
  assert (Hbs : b * base_of (sfmt_binary f) ^ scale_idx (starts_of (sfmt_binary f)) (VQ a b) <> 0)
    by (apply N.neq_mul_0; split; [exact Hb|apply base_pow_nz]).
  rewrite (proj2 (N.eqb_neq _ _) Hbs). now rewrite format_trunc.
Qed.

Lemma format_f64_spec : forall sig a b, b <> 0 -> sig + 1 < 2 ^ 64 ->
  format_f64 sig (VQ a b) = Ok (trunc_numeral a b sig).
Proof.
  intros sig a b Hb Hsig. unfold format_f64. destruct (b =? 0) eqn:E; [lia|].
  now apply format_trunc.
Qed.

Lemma format_bytes_spec : forall binary sig a b, b <> 0 -> sig + 1 < 2 ^ 64 ->
  format_bytes binary sig (VQ a b) = Ok (spec_scaled_string (SBytes binary) sig a b).
Proof. intros. now apply fmt_scaled_spec. Qed.

Lemma scaled_trunc : forall f sig a b, b <> 0 -> sig + 1 < 2 ^ 64 ->
  let '(i, st) := spec_scale (sfmt_binary f) a b in
  let d := len (digits_of (a / (b * st))) in
  let k := sig - d in
  fmt_scaled f sig (VQ a b) = Ok (render_fix (a * 10 ^ k / (b * st)) k ++ [ch_space] ++ spec_suffix f i).
Proof.
  intros f sig a b Hb Hsig. pose proof (fmt_scaled_spec f sig a b Hb Hsig) as H.
  unfold spec_scaled_string in H. destruct (spec_scale (sfmt_binary f) a b) as [i st]. exact H.
Qed.

Lemma spec_scaled_string_shape : forall f sig a b, exists i st, i <= 5 /\
  spec_scaled_string f sig a b = trunc_numeral a (b * st) sig ++ [ch_space] ++ spec_suffix f i.
Proof.
  intros f sig a b. unfold spec_scaled_string.
  destruct (scale_choice (sfmt_binary f) a b) as [Hi [-> _]]. eexists _, _. split; [exact Hi|reflexivity].
Qed.

Lemma scaled_sb_spec : forall f sig a b out,
  scaled_sb f sig a b out = true <-> out = spec_scaled_string f sig a b.
Proof.
  intros f sig a b out. unfold scaled_sb, spec_scaled_string.
  destruct (spec_scale (sfmt_binary f) a b) as [i st].
  apply (numeral_then_sb out a (b * st) sig (fun _ => spec_suffix f i)).
Qed.

Lemma scaled_sb_approx_refl : forall f sig a b,
  scaled_sb_approx f sig a b (spec_scaled_string f sig a b) = true.
Proof.
  intros f sig a b. unfold scaled_sb_approx. now rewrite (proj2 (scaled_sb_spec f sig a b _) eq_refl).
Qed.

Lemma scaled_model_sb : forall f sig a b, b <> 0 -> sig + 1 < 2 ^ 64 ->
  match fmt_scaled f sig (VQ a b) with
  | Ok s => scaled_sb f sig a b s = true /\ scaled_sb_approx f sig a b s = true
  | Panic _ => False
  end.
Proof.
  intros f sig a b Hb Hsig. rewrite fmt_scaled_spec by assumption.
  split; [now apply scaled_sb_spec|apply scaled_sb_approx_refl].
Qed.

(** Soundness of the tolerant check: whenever [scaled_sb_approx] accepts, the
    string is the exact specification's string for a rational [x/y] within
    relative 2^-50 of [a/b]. *)
Lemma scaled_sb_approx_sound : forall f sig a b out, b <> 0 ->
  scaled_sb_approx f sig a b out = true ->
  exists x y, y <> 0 /\
    a * (tol - 1) * y <= x * (b * tol) <= a * (tol + 1) * y /\
    out = spec_scaled_string f sig x y.
Proof.
  intros f sig a b out Hb H. unfold scaled_sb_approx in H.
  assert (Ht : tol = 1125899906842624) by reflexivity.
  repeat (apply orb_true_iff in H; destruct H as [H|H]).
  - exists a, b. split; [exact Hb|]. split; [nia|]. now apply scaled_sb_spec.
  - exists (a * (tol - 1)), (b * tol). split; [lia|]. split; [nia|]. now apply scaled_sb_spec.
  - exists (a * (tol + 1)), (b * tol). split; [lia|]. split; [nia|]. now apply scaled_sb_spec.
  - destruct (printed_value f out) as [[x y]|] eqn:Ep; [|discriminate].
    apply andb_true_iff in H. destruct H as [H Hs]. apply andb_true_iff in H. destruct H as [H1 H2].
    assert (Hy : y <> 0).
    { unfold printed_value in Ep. destruct (split_at ch_space out) as [num [rest|]]; [|discriminate].
      destruct (suffix_index f rest); [|discriminate].
      destruct (split_at ch_dot num) as [ip ofp].
      match type of Ep with context [if ?c then _ else _] => destruct c end; [|discriminate].
      inversion Ep. apply pow10_nz. }
    exists x, y. split; [exact Hy|]. split; [lia|]. now apply scaled_sb_spec.
Qed.

Definition thr_string (f : sfmt) (sig count picos : N) : str :=
  if count =? 0 then [ch_0; ch_space] ++ spec_suffix f 0
  else if picos =? 0 then [105; 110; 102; ch_space] ++ spec_suffix f 0
  else spec_scaled_string f sig (count * 1000000000000) picos.

Lemma fmt_scaled_thr : forall f sig count picos, sig + 1 < 2 ^ 64 ->
  fmt_scaled f sig (thr_value count picos) = Ok (thr_string f sig count picos).
Proof.
  intros f sig count picos Hsig. unfold thr_value, thr_string.
  destruct (count =? 0); [|destruct (picos =? 0) eqn:Ep].
  - rewrite fmt_scaled_spec by (try exact Hsig; discriminate). unfold spec_scaled_string.
    replace (spec_scale (sfmt_binary f) 0 1) with (0, 1) by (now destruct (sfmt_binary f)).
    now rewrite trunc_numeral_zero.
  - now destruct f as [[|]|[|]| | |].
  - apply fmt_scaled_spec; [lia|exact Hsig].
Qed.

Lemma thr_string_shape : forall f sig count picos, exists x i,
  thr_string f sig count picos = x ++ [ch_space] ++ spec_suffix f i /\ notin ch_space x /\ i <= 5.
Proof.
  intros f sig count picos. unfold thr_string.
  destruct (count =? 0); [|destruct (picos =? 0)].
  - exists [ch_0], 0. split; [reflexivity|]. split; [repeat constructor; discriminate|lia].
  - exists [105; 110; 102], 0. split; [reflexivity|]. split; [repeat constructor; discriminate|lia].
  - destruct (spec_scaled_string_shape f sig (count * 1000000000000) picos) as (i & st & Hi & ->).
    eexists _, i. split; [reflexivity|]. split; [apply trunc_numeral_no_space|exact Hi].
Qed.

Lemma throughput_sb_sig : forall kind count picos binary s,
  throughput_sb kind count picos binary (Ok s) = throughput_sig_sb 4 kind count picos binary s.
Proof. intros. unfold throughput_sb, throughput_sig_sb. now destruct (thr_format kind binary). Qed.

Lemma thr_string_sb : forall f sig kind count picos binary, thr_format kind binary = Ok f ->
  throughput_sig_sb sig kind count picos binary (thr_string f sig count picos) = true.
Proof.
  intros f sig kind count picos binary Hf. unfold throughput_sig_sb, thr_string. rewrite Hf.
  destruct (count =? 0); [now apply str_eqb_eq|].
  destruct (picos =? 0); [now apply str_eqb_eq|]. apply scaled_sb_approx_refl.
Qed.

Lemma thr_format_ok : forall kind binary, kind <= 3 -> exists f, thr_format kind binary = Ok f.
Proof.
  intros kind binary Hk.
  assert (H : kind = 0 \/ kind = 1 \/ kind = 2 \/ kind = 3) by lia.
  destruct H as [->|[->|[-> | ->]]]; eexists; reflexivity.
Qed.

Lemma display_throughput_thr : forall kind count picos binary f, thr_format kind binary = Ok f ->
  display_throughput kind count picos binary = Ok (thr_string f 4 count picos).
Proof.
  intros kind count picos binary f Hf. unfold display_throughput. rewrite Hf. now apply fmt_scaled_thr.
Qed.

Lemma throughput_zero_count : forall kind picos binary f, thr_format kind binary = Ok f ->
  display_throughput kind 0 picos binary = Ok ([ch_0; ch_space] ++ spec_suffix f 0).
Proof. intros kind picos binary f Hf. exact (display_throughput_thr kind 0 picos binary f Hf). Qed.

Lemma throughput_zero_duration : forall kind count binary f, thr_format kind binary = Ok f ->
  count <> 0 ->
  display_throughput kind count 0 binary = Ok ([105; 110; 102; ch_space] ++ spec_suffix f 0).
Proof.
  intros kind count binary f Hf Hc. rewrite (display_throughput_thr _ _ _ _ f Hf). unfold thr_string.
  now rewrite (proj2 (N.eqb_neq _ _) Hc).
Qed.

Lemma throughput_scaled : forall kind count picos binary f, thr_format kind binary = Ok f ->
  count <> 0 -> picos <> 0 ->
  display_throughput kind count picos binary
  = Ok (spec_scaled_string f 4 (count * 1000000000000) picos).
Proof.
  intros kind count picos binary f Hf Hc Hp. rewrite (display_throughput_thr _ _ _ _ f Hf). unfold thr_string.
  now rewrite (proj2 (N.eqb_neq _ _) Hc), (proj2 (N.eqb_neq _ _) Hp).
Qed.

Lemma throughput_total : forall kind count picos binary, kind <= 3 ->
  exists s, display_throughput kind count picos binary = Ok s.
Proof.
  intros kind count picos binary Hk. destruct (thr_format_ok kind binary Hk) as [f Hf].
  eexists. exact (display_throughput_thr _ _ _ _ f Hf).
Qed.

Lemma throughput_model_sb : forall kind count picos binary, kind <= 3 ->
  throughput_sb kind count picos binary (display_throughput kind count picos binary) = true.
Proof.
  intros kind count picos binary Hk. destruct (thr_format_ok kind binary Hk) as [f Hf].
  rewrite (display_throughput_thr _ _ _ _ f Hf), throughput_sb_sig. now apply thr_string_sb.
Qed.

Example scaled_guard_satisfiable :
  (3 : N) <> 0 /\ 4 + 1 < 2 ^ 64 /\
  fmt_scaled (SBytes true) 4 (VQ 10000 3) = Ok [51; 46; 50; 53; 53; 32; 75; 105; 66].   (* 3.255 KiB *)
Proof. vm_compute. repeat split; discriminate. Qed.

Example throughput_guard_satisfiable :
  display_throughput 3 1000 2000 false = Ok [53; 48; 48; 32; 71; 105; 116; 101; 109; 47; 115].  (* 500 Gitem/s *)
Proof. reflexivity. Qed.

(** For C05: finite values never print "NaN" or "inf"; the throughput prints
    "inf" exactly for a zero duration with a non-zero count. *)

Lemma format_f64_prints_no_nan : forall sig a b, b <> 0 -> sig + 1 < 2 ^ 64 ->
  exists num, format_f64 sig (VQ a b) = Ok num /\ numeral_chars num /\
    ~ contains nan_str num /\ ~ contains inf_str num.
Proof.
  intros sig a b Hb Hsig. exists (trunc_numeral a b sig).
  split; [now apply format_f64_spec|]. pose proof (trunc_numeral_chars a b sig) as Hn.
  split; [exact Hn|now apply numeral_no_nan_inf].
Qed.

Lemma fmt_scaled_prints_no_nan : forall f sig a b, b <> 0 -> sig + 1 < 2 ^ 64 ->
  exists num i, i <= 5 /\
    fmt_scaled f sig (VQ a b) = Ok (num ++ [ch_space] ++ spec_suffix f i) /\
    numeral_chars num /\
    ~ contains nan_str (num ++ [ch_space] ++ spec_suffix f i) /\
    ~ contains inf_str (num ++ [ch_space] ++ spec_suffix f i).
Proof.
  intros f sig a b Hb Hsig. pose proof (fmt_scaled_spec f sig a b Hb Hsig) as H.
  destruct (spec_scaled_string_shape f sig a b) as (i & st & Hi & E). rewrite E in H.
  exists (trunc_numeral a (b * st) sig), i. split; [exact Hi|]. split; [exact H|].
  split; [apply trunc_numeral_chars|].
  destruct (spec_suffix_letters f i Hi) as [H78 H102].
  apply no_nan_inf; [apply trunc_numeral_chars|exact H78|exact H102].
Qed.

Lemma throughput_inf_iff : forall kind count picos binary, kind <= 3 ->
  exists s, display_throughput kind count picos binary = Ok s /\
    (starts_with inf_str s <-> count <> 0 /\ picos = 0) /\
    ~ contains nan_str s.
Proof.
  intros kind count picos binary Hk. destruct (thr_format_ok kind binary Hk) as [f Hf].
  eexists. split; [exact (display_throughput_thr _ _ _ _ f Hf)|].
  destruct (spec_suffix_letters f 0 ltac:(lia)) as [H78_0 _].
  unfold thr_string. destruct (N.eqb_spec count 0) as [Hc|Hc]; [|destruct (N.eqb_spec picos 0) as [Hp|Hp]].
  - split; [split; [intros [post E]; discriminate E|lia]|].
    apply (not_contains_byte 78); [cbn; auto|]. intros [E|[E|E]]; try discriminate E. auto.
  - split; [split; [auto|intros _; eexists; reflexivity]|].
    apply (not_contains_byte 78); [cbn; auto|]. intros [E|[E|[E|[E|E]]]]; try discriminate E. auto.
  - destruct (spec_scaled_string_shape f 4 (count * 1000000000000) picos) as (i & st & Hi & ->).
    destruct (spec_suffix_letters f i Hi) as [H78 H102]. split.
    + split; [|lia]. intros [post E]. exfalso. unfold trunc_numeral in E.
      match type of E with render_fix ?t ?k ++ _ = _ =>
        destruct (render_fix_head_digit t k) as [b0 [r0 [Er Hd]]]; rewrite Er in E end.
      injection E as -> _. unfold digit in Hd. lia.
    + now apply no_nan_inf; [apply trunc_numeral_chars| |].
Qed.

Lemma body_of_fill : forall width x suf, notin ch_space x -> notin ch_space suf ->
  body_of (fill_to width (x ++ [ch_space] ++ suf)) = x ++ [ch_space] ++ suf.
Proof.
  intros width x suf Hx Hs. rewrite fill_to_split. unfold body_of.
  rewrite split_at_app by exact Hx.
  destruct (N.to_nat match width with None => 0 | Some w => w - (len x + 1 + len suf) end) as [|n];
    cbn [repeat_byte repeat].
  - now rewrite app_nil_r, split_at_notin.
  - now rewrite split_at_app.
Qed.

Lemma display_throughput_with_thr : forall kind count picos binary prec width f,
  thr_format kind binary = Ok f -> thr_sig prec + 1 < 2 ^ 64 ->
  display_throughput_with kind count picos binary prec width
  = Ok (fill_to width (thr_string f (thr_sig prec) count picos)).
Proof.
  intros kind count picos binary prec width f Hf Hsig. unfold display_throughput_with.
  rewrite Hf. cbn [bind]. now rewrite fmt_scaled_thr.
Qed.

(** Never cut, for every precision and width: the output is the rule's
    string for [thr_sig prec] significant figures, padded on the right. *)
Lemma throughput_with_spec : forall kind count picos binary prec width f,
  thr_format kind binary = Ok f -> thr_sig prec + 1 < 2 ^ 64 -> count <> 0 -> picos <> 0 ->
  display_throughput_with kind count picos binary prec width
  = Ok (fill_to width (spec_scaled_string f (thr_sig prec) (count * 1000000000000) picos)).
Proof.
  intros kind count picos binary prec width f Hf Hsig Hc Hp.
  rewrite (display_throughput_with_thr _ _ _ _ _ _ f Hf Hsig). unfold thr_string.
  now rewrite (proj2 (N.eqb_neq _ _) Hc), (proj2 (N.eqb_neq _ _) Hp).
Qed.

Lemma throughput_with_default : forall kind count picos binary,
  display_throughput_with kind count picos binary None None = display_throughput kind count picos binary.
Proof.
  intros. unfold display_throughput_with, display_throughput, thr_sig.
  destruct (thr_format kind binary); [|reflexivity]. cbn [bind].
  destruct (fmt_scaled s 4 (thr_value count picos)); reflexivity.
Qed.

Lemma throughput_with_model_sb : forall kind count picos binary prec width,
  kind <= 3 -> thr_sig prec + 1 < 2 ^ 64 ->
  throughput_with_sb kind count picos binary prec width
    (display_throughput_with kind count picos binary prec width) = true.
Proof.
  intros kind count picos binary prec width Hk Hsig.
  destruct (thr_format_ok kind binary Hk) as [f Hf].
  rewrite (display_throughput_with_thr _ _ _ _ _ _ f Hf Hsig). unfold throughput_with_sb.
  destruct (thr_string_shape f (thr_sig prec) count picos) as [x [i [E [Hx Hi]]]].
  rewrite E, body_of_fill, <- E by (try exact Hx; now apply spec_suffix_no_space).
  apply andb_true_iff. split; [now apply str_eqb_eq|now apply thr_string_sb].
Qed.

Example throughput_with_guard_satisfiable :
  display_throughput_with 3 1234 1000000000 false (Some 4) (Some 16)
  = Ok [49; 46; 50; 51; 52; 32; 77; 105; 116; 101; 109; 47; 115; 32; 32; 32].   (* "1.234 Mitem/s   " *)
Proof. reflexivity. Qed.
