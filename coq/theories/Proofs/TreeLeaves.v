(** C12, tree level: every entry becomes exactly one leaf under its raw module
    path; sibling parents have distinct names (the tree is the trie of the
    paths); group insertion changes slots only. *)
From Coq Require Import Permutation.
From DivanV Require Import Base.Res Model.Registry Model.Tree Proofs.TreeBase Proofs.ListFacts.
Local Open Scope N_scope.

Definition rleaf := (list str * any_entry * option (list N))%type.

Definition prepend (r : str) (x : rleaf) : rleaf := (r :: fst (fst x), snd (fst x), snd x).

Fixpoint raw_leaves_node (t : tree) : list rleaf :=
  match t with
  | Leaf e a => [([], e, a)]
  | Parent r _ ch => map (prepend r) (flat_map raw_leaves_node ch)
  end.
Definition raw_leaves (l : list tree) : list rleaf := flat_map raw_leaves_node l.

Definition leaf_args (e : any_entry) : option (list N) :=
  match entry_runner e with
  | RPlain => None
  | RArgs _ vals => Some (index_list (length vals))
  end.
Definition rleaf_of (e : any_entry) : rleaf := (entry_path e, e, leaf_args e).

Definition parent_name (t : tree) : list str := match t with Parent r _ _ => [r] | Leaf _ _ => [] end.
Definition parent_names (l : list tree) : list str := flat_map parent_name l.

Lemma is_parent_named_spec : forall m t, is_parent_named m t = true <-> parent_name t = [m].
Proof.
  intros m [r g ch|e a]; cbn; split; intro H; try discriminate.
  - apply str_eqb_spec in H. congruence.
  - inversion H. apply str_eqb_refl.
Qed.

Lemma not_named : forall m t, is_parent_named m t = false -> ~ In m (parent_name t).
Proof.
  intros m [r g ch|e a] E Hin; cbn in Hin; [|exact Hin]. destruct Hin as [Hin|[]]. subst r.
  cbn in E. rewrite str_eqb_refl in E. discriminate.
Qed.

Lemma update_first_none : forall m f l,
  update_first (is_parent_named m) f l = None -> ~ In m (parent_names l).
Proof.
  intros m f. induction l as [|x tl IH]; intros H Hin; cbn in *; [exact Hin|].
  destruct (is_parent_named m x) eqn:E; [discriminate|].
  destruct (update_first _ f tl); [discriminate|].
  apply in_app_or in Hin. destruct Hin as [Hin|Hin]; [exact (not_named m x E Hin)|exact (IH eq_refl Hin)].
Qed.

Lemma update_first_some : forall m f l l',
  update_first (is_parent_named m) f l = Some l' ->
  exists l1 g ch l2, l = l1 ++ Parent m g ch :: l2 /\ l' = l1 ++ f (Parent m g ch) :: l2 /\ ~ In m (parent_names l1).
Proof.
  intros m f. induction l as [|x tl IH]; intros l' H; cbn in H; [discriminate|].
  destruct (is_parent_named m x) eqn:E.
  - injection H as <-. destruct x as [r g ch|e a]; [|discriminate]. apply str_eqb_spec in E. subst r.
    exists [], g, ch, tl. split; [reflexivity|]. split; [reflexivity|]. intros [].
  - destruct (update_first _ f tl) as [tl'|]; [|discriminate]. injection H as <-.
    destruct (IH tl' eq_refl) as [l1 [g [ch [l2 [-> [-> H3]]]]]].
    exists (x :: l1), g, ch, l2. split; [reflexivity|]. split; [reflexivity|].
    intro Hin. apply in_app_or in Hin.
    destruct Hin as [Hin|Hin]; [exact (not_named m x E Hin)|exact (H3 Hin)].
Qed.

Lemma raw_leaves_app : forall l1 l2, raw_leaves (l1 ++ l2) = raw_leaves l1 ++ raw_leaves l2.
Proof. intros. unfold raw_leaves. apply flat_map_app. Qed.

Lemma raw_leaves_from_path : forall e rest m,
  raw_leaves_node (from_path e m rest) = [(m :: rest, e, leaf_args e)].
Proof.
  intros e. induction rest as [|n r IH]; intro m; cbn [from_path raw_leaves_node flat_map].
  - reflexivity.
  - rewrite IH. reflexivity.
Qed.

Lemma raw_leaves_insert_entry : forall e path t,
  Permutation (raw_leaves (insert_entry path e t)) (raw_leaves t ++ [(path, e, leaf_args e)]).
Proof.
  intros e. induction path as [|m rest IH]; intro t; cbn [insert_entry].
  - rewrite raw_leaves_app. reflexivity.
  - destruct (update_first _ _ t) as [t'|] eqn:E.
    + apply update_first_some in E. destruct E as [l1 [g [ch [l2 [H1 [H2 _]]]]]]. subst.
      rewrite !raw_leaves_app. cbn [map_children raw_leaves flat_map raw_leaves_node].
      fold (raw_leaves (insert_entry rest e ch)). rewrite IH. unfold raw_leaves. rewrite map_app, <- !app_assoc.
      do 2 apply Permutation_app_head. apply Permutation_app_comm.
    + rewrite raw_leaves_app. cbn [raw_leaves flat_map]. rewrite raw_leaves_from_path. reflexivity.
Qed.

Lemma raw_leaves_from_benches_aux : forall es t,
  Permutation (raw_leaves (fold_left (fun t e => insert_entry (entry_path e) e t) es t))
              (raw_leaves t ++ map rleaf_of es).
Proof.
  induction es as [|e es IH]; intro t; cbn [fold_left map].
  - rewrite app_nil_r. reflexivity.
  - rewrite IH, raw_leaves_insert_entry, <- app_assoc. reflexivity.
Qed.

Lemma raw_leaves_from_benches : forall es, Permutation (raw_leaves (from_benches es)) (map rleaf_of es).
Proof. intro es. apply (raw_leaves_from_benches_aux es []). Qed.

Lemma raw_leaves_map_children : forall k t,
  (forall l, raw_leaves (k l) = raw_leaves l) -> raw_leaves_node (map_children k t) = raw_leaves_node t.
Proof. intros k [r g ch|e a] Hk; cbn; [|reflexivity]. fold (raw_leaves (k ch)). rewrite Hk. reflexivity. Qed.

Lemma raw_leaves_set_group : forall g t, raw_leaves_node (set_group g t) = raw_leaves_node t.
Proof. intros g [r g0 ch|e a]; reflexivity. Qed.

Lemma raw_leaves_update_or_same : forall p f l,
  (forall x, raw_leaves_node (f x) = raw_leaves_node x) -> raw_leaves (or_same l (update_first p f l)) = raw_leaves l.
Proof.
  intros p f l Hf. destruct (update_first p f l) as [l'|] eqn:E; cbn [or_same]; [|reflexivity].
  exact (update_first_flat_map _ raw_leaves_node p f l l' Hf E).
Qed.

Lemma raw_leaves_descend : forall k,
  (forall l, raw_leaves (k l) = raw_leaves l) ->
  forall comps l, raw_leaves (descend comps k l) = raw_leaves l.
Proof.
  intros k Hk. induction comps as [|c rest IH]; intro l; cbn [descend]; [apply Hk|].
  apply raw_leaves_update_or_same. intro x. apply raw_leaves_map_children, IH.
Qed.

Lemma raw_leaves_insert_group : forall g l, raw_leaves (insert_group l g) = raw_leaves l.
Proof.
  intros g l. apply raw_leaves_descend. intro l0. apply raw_leaves_update_or_same, raw_leaves_set_group.
Qed.

Lemma raw_leaves_fold_groups : forall groups l, raw_leaves (fold_left insert_group groups l) = raw_leaves l.
Proof.
  induction groups as [|g gs IH]; intro l; cbn; [reflexivity|]. rewrite IH. apply raw_leaves_insert_group.
Qed.

Lemma tree_complete : forall benches groups,
  Permutation (raw_leaves (build_tree benches groups)) (map rleaf_of (all_entries benches groups)).
Proof.
  intros. unfold build_tree. rewrite raw_leaves_fold_groups. apply raw_leaves_from_benches.
Qed.

Lemma order_independent_leaves : forall es es',
  Permutation es es' -> Permutation (raw_leaves (from_benches es)) (raw_leaves (from_benches es')).
Proof. intros es es' H. rewrite !raw_leaves_from_benches. apply Permutation_map, H. Qed.

Inductive trie : tree -> Prop :=
| trie_leaf : forall e a, trie (Leaf e a)
| trie_parent : forall r g ch, NoDup (parent_names ch) -> Forall trie ch -> trie (Parent r g ch).
Definition trie_forest (l : list tree) : Prop := NoDup (parent_names l) /\ Forall trie l.

Lemma parent_names_app : forall l1 l2, parent_names (l1 ++ l2) = parent_names l1 ++ parent_names l2.
Proof. intros. unfold parent_names. apply flat_map_app. Qed.

Lemma trie_forest_split : forall A r g ch B, trie_forest (A ++ Parent r g ch :: B) ->
  ~ In r (parent_names A) /\ ~ In r (parent_names B) /\ trie_forest ch /\ trie_forest (A ++ B).
Proof.
  intros A r g ch B [Hnd Hall]. rewrite parent_names_app in Hnd.
  change (parent_names (Parent r g ch :: B)) with (r :: parent_names B) in Hnd.
  apply NoDup_remove in Hnd. destruct Hnd as [Hnd Hr]. rewrite in_app_iff in Hr.
  apply Forall_app in Hall. destruct Hall as [HA HB]. inversion HB as [|? ? Hp HB']; subst. inversion Hp; subst.
  split; [intro Hin; apply Hr; left; exact Hin|]. split; [intro Hin; apply Hr; right; exact Hin|]. split; [split; assumption|].
  split; [rewrite parent_names_app; exact Hnd|apply Forall_app; split; assumption].
Qed.

Lemma trie_forest_remove_leaf : forall A e a B, trie_forest (A ++ Leaf e a :: B) -> trie_forest (A ++ B).
Proof.
  intros A e a B [Hnd Hall]. rewrite parent_names_app in Hnd. apply Forall_app in Hall. destruct Hall as [HA HB].
  inversion HB; subst. split; [rewrite parent_names_app; exact Hnd|apply Forall_app; split; assumption].
Qed.

Lemma parent_name_from_path : forall e rest m, parent_name (from_path e m rest) = [m].
Proof. intros e [|n r] m; reflexivity. Qed.

Lemma parent_name_map_children : forall k t, parent_name (map_children k t) = parent_name t.
Proof. intros k [r g ch|e a]; reflexivity. Qed.

Lemma parent_name_set_group : forall g t, parent_name (set_group g t) = parent_name t.
Proof. intros g [r g0 ch|e a]; reflexivity. Qed.

Lemma trie_map_children : forall k t,
  (forall l, trie_forest l -> trie_forest (k l)) -> trie t -> trie (map_children k t).
Proof.
  intros k t Hk [e a|r g ch Hn Hf]; cbn; [constructor|].
  destruct (Hk ch (conj Hn Hf)). apply trie_parent; assumption.
Qed.

Lemma trie_set_group : forall g t, trie t -> trie (set_group g t).
Proof. intros g t [e a|r g0 ch Hn Hf]; cbn; constructor; assumption. Qed.

Lemma trie_only_child : forall r g t, trie t -> trie (Parent r g [t]).
Proof.
  intros r g t H. apply trie_parent; [|constructor; [exact H|constructor]].
  destruct t; cbn; repeat constructor. intros [].
Qed.

Lemma trie_from_path : forall e rest m, trie (from_path e m rest).
Proof.
  intros e. induction rest as [|n r IH]; intro m; apply trie_only_child; [constructor|apply IH].
Qed.

Lemma trie_snoc : forall l t,
  trie_forest l -> trie t -> NoDup (parent_names l ++ parent_name t) -> trie_forest (l ++ [t]).
Proof.
  intros l t [_ Hall] Ht Hnd. split.
  - rewrite parent_names_app. cbn. rewrite app_nil_r. exact Hnd.
  - apply Forall_app. split; [exact Hall|]. constructor; [exact Ht|constructor].
Qed.

Lemma trie_update_first : forall p f l l',
  (forall x, parent_name (f x) = parent_name x) -> (forall x, trie x -> trie (f x)) ->
  update_first p f l = Some l' -> trie_forest l -> trie_forest l'.
Proof.
  intros p f l l' Hn Hf E [Hnd Hall]. split.
  - unfold parent_names. rewrite (update_first_flat_map _ parent_name p f l l' Hn E). exact Hnd.
  - exact (update_first_Forall trie p f l l' Hf E Hall).
Qed.

Lemma trie_insert_entry : forall e path t, trie_forest t -> trie_forest (insert_entry path e t).
Proof.
  intros e. induction path as [|m rest IH]; intros t H; cbn [insert_entry].
  - apply trie_snoc; [exact H|constructor|]. cbn. rewrite app_nil_r. apply H.
  - destruct (update_first _ _ t) as [t'|] eqn:E.
    + refine (trie_update_first _ _ t t' (parent_name_map_children _) _ E H).
      intro x. apply trie_map_children, IH.
    + apply trie_snoc; [exact H|apply trie_from_path|]. rewrite parent_name_from_path.
      apply NoDup_snoc; [apply H|exact (update_first_none _ _ _ E)].
Qed.

Lemma trie_from_benches : forall es, trie_forest (from_benches es).
Proof.
  intro es. apply (fold_left_inv trie_forest); [|split; constructor].
  intros t e. apply trie_insert_entry.
Qed.

Lemma trie_descend : forall k,
  (forall l, trie_forest l -> trie_forest (k l)) ->
  forall comps l, trie_forest l -> trie_forest (descend comps k l).
Proof.
  intros k Hk. induction comps as [|c rest IH]; intros l H; cbn [descend]; [apply Hk, H|].
  destruct (update_first _ _ l) as [l'|] eqn:E; cbn [or_same]; [|exact H].
  refine (trie_update_first _ _ l l' (parent_name_map_children _) _ E H).
  intro x. apply trie_map_children, IH.
Qed.

Lemma trie_insert_group : forall g l, trie_forest l -> trie_forest (insert_group l g).
Proof.
  intros g l. apply trie_descend. intros l0 H.
  destruct (update_first _ _ l0) as [l'|] eqn:E; cbn [or_same]; [|exact H].
  exact (trie_update_first _ _ l0 l' (parent_name_set_group g) (trie_set_group g) E H).
Qed.

Lemma modules_merged : forall benches groups, trie_forest (build_tree benches groups).
Proof.
  intros. apply (fold_left_inv trie_forest); [|apply trie_from_benches].
  intros t g. apply trie_insert_group.
Qed.
