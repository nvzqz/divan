(** C08: the boolean specification evaluated on observed global
    logs ([log_sb], a monitor) accepts the log of every execution of the model:
    Sb x (M x) = true, for any number of threads, rounds, interleaving, fault set. *)
From Coq Require Import List Arith Bool Lia.
From DivanV Require Import Model.Round Proofs.RoundBase Proofs.RoundInv Proofs.ListFacts.
Import ListNotations.

Lemma nth_error_upd_same : forall A i (x : A) l j y,
  nth_error l i = Some x -> nth_error (upd i x l) j = Some y -> nth_error l j = Some y.
Proof. intros A i x l j y N H. rewrite (upd_nth_same _ _ _ _ N) in H. exact H. Qed.

(** The monitor's counters of a thread as a function of its model state;
    [g0] generator calls were made in the [r] earlier rounds. *)
Definition counters (g0 n r : nat) (th : thread) : mcnt :=
  {| m_gen := Nat.min (pc th) n + g0;
     m_clear := b2n (n + 1 <? pc th) + r;
     m_start := b2n (n + 3 <? pc th) + r;
     m_end := b2n (2 * n + 4 <? pc th) + r;
     m_pan := panicked th |}.

Definition idle_cnt (g0 r : nat) : mcnt :=
  {| m_gen := g0; m_clear := r; m_start := r; m_end := r; m_pan := false |}.

Definition cnt (c : config) (r : nat) (th : thread) : mcnt :=
  counters (cum (ssize c) r) (ssize c r) r th.

Lemma b2n_ltb : forall a b, (a < b /\ b2n (a <? b) = 1) \/ (b <= a /\ b2n (a <? b) = 0).
Proof. intros a b. destruct (Nat.ltb_spec a b); cbn [b2n]; lia. Qed.

Lemma counters_returned : forall g0 n sh r th,
  plen n sh <= pc th -> panicked th = false -> counters g0 n r th = idle_cnt (g0 + n) (S r).
Proof.
  intros g0 n sh r th PL P. unfold counters, idle_cnt. rewrite P. unfold plen in PL.
  pose proof (b2n_ltb (n + 1) (pc th)). pose proof (b2n_ltb (n + 3) (pc th)).
  pose proof (b2n_ltb (2 * n + 4) (pc th)). f_equal; lia.
Qed.

Lemma counters_same : forall g0 n r th th',
  pc th' = pc th -> panicked th' = panicked th -> counters g0 n r th' = counters g0 n r th.
Proof. intros g0 n r th th' P Q. unfold counters. rewrite P, Q. reflexivity. Qed.

(** After [b2n_ltb_S] a field of [counters] one position on differs from the
    old one by whether the position is its threshold. *)
Ltac at_threshold :=
  try match goal with |- context[b2n (?a =? ?p)] => destruct (Nat.eqb_spec a p) end; cbn [b2n]; lia.

(** The counters change at four places only: in the generator calls and
    over the clear and the two timestamps. *)
Lemma counters_flat : forall g0 n r th th',
  n <= pc th -> pc th <> n + 1 -> pc th <> n + 3 -> pc th <> 2 * n + 4 ->
  pc th' = S (pc th) -> panicked th' = panicked th ->
  counters g0 n r th' = counters g0 n r th.
Proof.
  intros g0 n r th th' G C S E P Q. unfold counters. rewrite P, Q, !b2n_ltb_S. f_equal; at_threshold.
Qed.

Lemma counters_over_wait : forall g0 n r th th',
  iswait n (pc th) = true -> pc th' = S (pc th) -> panicked th' = panicked th ->
  counters g0 n r th' = counters g0 n r th.
Proof. intros g0 n r th th' W. apply iswait_iff in W. apply counters_flat; lia. Qed.

Lemma counters_exec : forall g0 n sh r th th' a,
  nth_error (prog n sh) (pc th) = Some a ->
  pc th' = S (pc th) -> panicked th' = panicked th ->
  counters g0 n r th' = mon_upd (counters g0 n r th) (ev_of_act a).
Proof.
  intros g0 n sh r th th' a N P Q.
  destruct (prog_at _ _ _ _ N) as [L|L|L|L|L|L|L|L|L|k [|] L];
    cbn [ev_of_act mon_upd]; try (apply counters_flat; auto; lia);
    unfold counters; rewrite P, Q, !b2n_ltb_S; cbn [m_gen m_clear m_start m_end m_pan]; f_equal; at_threshold.
Qed.

(** What a step of thread [i] logs: [step_event_g] without the lookup of the thread. *)
Definition tevent (gev : bool) (c : config) (r i : nat) (th : thread) : option evk :=
  match md th, blk th with
  | Run, Some _ =>
    match nth_error (tprog c r i) (pc th) with Some (AWait w) => Some (ELeave w) | _ => None end
  | Run, None =>
    match nth_error (tprog c r i) (pc th) with
    | Some a => Some (if faultable a && fault c i r (pc th) then EPanic else ev_of_act a)
    | None => None
    end
  | Unwind, Some _ => if gev then Some EGLeave else None
  | Unwind, None => if gev && negb (remaining th =? 0) then Some EGArrive else None
  | _, _ => None
  end.

Lemma step_event_thread : forall gev c st i th,
  gp st = GRun -> nth_error (ths st) i = Some th ->
  step_event_g gev c st (LThread i) = option_map (pair i) (tevent gev c (round st) i th).
Proof.
  intros gev c st i th G N. unfold step_event_g, tevent. rewrite G, N.
  destruct (md th), (blk th); try reflexivity.
  - destruct (nth_error (tprog c (round st) i) (pc th)) as [[]|]; reflexivity.
  - destruct (nth_error (tprog c (round st) i) (pc th)); [destruct (_ && _)|]; reflexivity.
  - destruct gev; reflexivity.
  - destruct (_ && _); reflexivity.
Qed.

Lemma cnt_tcase : forall gev c r i th b th' b',
  fixed_code c -> thread_ok (ssize c r) (shp c) (bgen b) th -> tcase c r i th b th' b' ->
  cnt c r th' = match tevent gev c r i th with Some e => mon_upd (cnt c r th) e | None => cnt c r th end.
Proof.
  intros gev c r i th b th' b' GD OK TC. unfold cnt, tevent. set (g0 := cum (ssize c) r). rewrite (tprog_info _ _ _ (proj2 GD i)).
  destruct TC;
    rewrite M, BL.
  - (* leaving a wait logs [ELeave] and moves over the wait *)
    assert (counters g0 (ssize c r) r (next_pc (set_blk th None)) = counters g0 (ssize c r) r th) as CE
      by (apply counters_over_wait; auto; apply (blocked_at_wait _ _ _ _ _ OK M BL)).
    destruct (nth_error _ _) as [[]|]; exact CE.
  - destruct gev; apply counters_same; auto.
  - apply prog_none in PL. rewrite PL. apply counters_same; auto. unfold panicked. cbn [md set_md]. rewrite M. reflexivity.
  - rewrite NA. apply counters_over_wait; auto.
  - rewrite NA. apply counters_same; auto.
  - rewrite NA, (proj2 (prog_kind _ _ _ _ NA)), U, FL, (proj1 GD). reflexivity.
  - rewrite NA, (proj2 (prog_kind _ _ _ _ NA)).
    replace (userpos (ssize c r) (shp c) (pc th) && fault c i r (pc th)) with false
      by (destruct (userpos (ssize c r) (shp c) (pc th)); [rewrite FL|]; auto).
    apply (counters_exec _ _ _ _ _ _ _ NA); [apply exec_pc|]. unfold panicked. rewrite exec_md. reflexivity.
  - rewrite R0, andb_false_r. apply counters_same; auto. unfold panicked. cbn [md set_md]. rewrite M. reflexivity.
  - rewrite RK, andb_true_r. destruct gev; apply counters_same; auto.
  - rewrite RK, andb_true_r. destruct gev; apply counters_same; auto.
Qed.

Section Monitor.
Variable c : config.
Hypothesis T1 : 1 <= nthreads c.
Hypothesis GD : fixed_code c.

(** The monitor state that goes with a model state: in a round every thread's
    counters; between rounds every thread has completed the same rounds. *)
Definition Sim (st : state) (ms : list mcnt) : Prop :=
  match gp st with
  | GRun => ms = map (cnt c (round st)) (ths st)
  | GIdle => ms = repeat (idle_cnt (cum (ssize c) (round st)) (round st)) (nthreads c)
  | GEnd _ => True
  end.

Lemma forallb_live : forall r (q : mcnt -> bool) l,
  (forall th, In th l -> panicked th = false -> q (cnt c r th) = true) ->
  forallb (fun mj => m_pan mj || q mj) (map (cnt c r) l) = true.
Proof.
  intros r q l H. apply forallb_forall. intros mj HI. apply in_map_iff in HI. destruct HI as (th & <- & HI).
  change (m_pan (cnt c r th)) with (panicked th). destruct (panicked th) eqn:P; [reflexivity|]. apply H; auto.
Qed.

(** The monitor accepts what a thread logs: by the invariant the generation
    says where every live thread is. *)
Lemma tevent_ok : forall gev st i th,
  Inv c st -> gp st = GRun -> nth_error (ths st) i = Some th ->
  forall e, tevent gev c (round st) i th = Some e ->
  mon_ok (ssize c) (map (cnt c (round st)) (ths st)) (cnt c (round st) th) e = true.
Proof.
  intros gev st i th [_ K] G N e. destruct (K G) as (_ & _ & C).
  pose proof (C th (nth_error_In _ _ N)) as OK.
  unfold tevent. rewrite (tprog_info _ _ _ (proj2 GD i)). unfold thread_ok in OK.
  destruct (md th) eqn:M, (blk th) eqn:BL; try discriminate.
  - destruct (nth_error (prog _ _) (pc th)) as [[]|]; try discriminate. intros [= <-]. reflexivity.
  - destruct (nth_error (prog _ _) (pc th)) as [a|] eqn:NA; [|discriminate].
    destruct (_ && _); intros [= <-]; [reflexivity|].
    set (n := ssize c (round st)) in *. set (r := round st) in *. destruct OK as [_ GW].
    rewrite GW in C.
    assert (wb n (pc th) <> 2 -> untimed_ok (map (cnt c r) (ths st)) = true) as UNT.
    { intros W2. apply forallb_live. intros thj HJ PJ. apply Nat.leb_le.
      pose proof (live_not_timed _ _ _ _ (C thj HJ) PJ W2).
      unfold cnt, counters. cbn [m_start m_end]. fold n.
      pose proof (b2n_ltb (n + 3) (pc thj)). pose proof (b2n_ltb (2 * n + 4) (pc thj)). lia. }
    assert (3 <= wb n (pc th) ->
            forallb (fun mj => m_pan mj || (m_end (cnt c r th) <=? m_end mj)) (map (cnt c r) (ths st)) = true) as END.
    { intros W3. apply forallb_live. intros thj HJ PJ. apply Nat.leb_le.
      destruct (live_thread_pos _ _ _ _ (C thj HJ) PJ) as [_ X3]. specialize (X3 W3).
      unfold cnt, counters. cbn [m_end]. fold n.
      pose proof (b2n_ltb (2 * n + 4) (pc thj)). pose proof (b2n_ltb (2 * n + 4) (pc th)). lia. }
    pose proof (wb_spec n (pc th)) as WB.
    (* generator calls and the clear are untimed work; so are the snapshot and the
       drops, which also come after every end timestamp *)
    destruct (prog_at _ _ _ _ NA) as [L|L|L|L|L|L|L|L|L|k [|] L];
      cbn [ev_of_act mon_ok]; try reflexivity; try (apply UNT; lia);
      try (rewrite UNT, andb_true_r by lia; apply END; lia).
    (* start timestamp: every live thread has generated and cleared *)
    apply forallb_live. intros thj HJ PJ.
    destruct (live_thread_pos _ _ _ _ (C thj HJ) PJ) as [X2 _]. specialize (X2 ltac:(lia)).
    unfold cnt, counters. cbn [m_start m_clear m_gen cum]. fold n. rewrite L, Nat.ltb_irrefl.
    pose proof (b2n_ltb (n + 1) (pc thj)).
    apply andb_true_iff. split; apply Nat.leb_le; cbn [b2n Nat.add]; lia.
  - destruct gev; intros [= <-]. reflexivity.
  - destruct (_ && _); intros [= <-]. reflexivity.
Qed.

Lemma monitor_step : forall gev st ms l st',
  Inv c st -> Sim st ms -> step c st l = Some st' ->
  match step_event_g gev c st l with
  | Some (t, e) => exists m, nth_error ms t = Some m /\ mon_ok (ssize c) ms m e = true /\ Sim st' (upd t (mon_upd m e) ms)
  | None => Sim st' ms
  end.
Proof.
  intros gev st ms l st' IV SM ST. pose proof IV as [LI K]. unfold Sim in SM.
  apply (step_cases _ _ _ _ (proj2 GD)) in ST.
  destruct ST; rewrite G in SM.
  - unfold step_event_g, Sim. cbn [gp round ths]. rewrite map_map, SM, <- LI.
    symmetry. apply map_all_const. (* the counters of a fresh thread, by computation *) reflexivity.
  - exact I.
  - exact I.
  - unfold step_event_g, Sim. cbn [gp round]. rewrite SM, <- LI.
    apply map_all_const. intros th HI. destruct (K G) as (_ & _ & C).
    pose proof (find_idx_none _ _ _ X th HI) as RT. unfold returned in RT.
    destruct (md th) eqn:M; try discriminate.
    unfold cnt. cbn [cum]. eapply counters_returned; [apply (returned_at_end _ _ _ _ (C th HI) M)|].
    unfold panicked. rewrite M. reflexivity.
  - destruct (K G) as (_ & _ & C). pose proof (C th (nth_error_In _ _ N)) as OK.
    pose proof (cnt_tcase gev _ _ _ _ _ _ _ GD OK TC) as CE.
    pose proof (tevent_ok gev _ _ _ IV G N) as AC.
    rewrite (step_event_thread _ _ _ _ _ G N). unfold Sim. cbn [gp round ths]. rewrite map_upd, CE, SM.
    destruct (tevent gev c (round st) i th) as [e|]; cbn [option_map].
    + exists (cnt c (round st) th). split; [apply map_nth_error; exact N|]. split; [apply AC|]; reflexivity.
    + symmetry. apply upd_nth_same. apply map_nth_error. exact N.
Qed.

Lemma monitor_events : forall gev tr st ms,
  Inv c st -> Sim st ms -> monitor (ssize c) ms (events_g gev c st tr) = true.
Proof.
  intros gev. induction tr as [|l t IH]; intros st ms I SM; [reflexivity|]. cbn [events_g].
  destruct (step c st l) as [st'|] eqn:ST; [|reflexivity].
  pose proof (monitor_step gev _ _ _ _ I SM ST) as MS.
  assert (Inv c st') as I' by (eapply inv_step; eauto).
  destruct (step_event_g gev c st l) as [[t0 e]|].
  - destruct MS as (m & Hm & OKm & SM'). cbn [monitor]. rewrite Hm, OKm. cbn [andb]. apply IH; auto.
  - apply IH; auto.
Qed.

Lemma log_sb_model_g : forall gev tr, log_sb (nthreads c) (ssize c) (events_g gev c (init c) tr) = true.
Proof.
  intros gev tr. unfold log_sb. apply monitor_events.
  - apply inv_init.
  - reflexivity.
Qed.

Theorem log_sb_model : forall tr, log_sb (nthreads c) (ssize c) (events c (init c) tr) = true.
Proof. exact (log_sb_model_g false). Qed.

(** The same of the full log, the guard's waits (hook H5) included. *)
Theorem log_sb_model_full : forall tr, log_sb (nthreads c) (ssize c) (events_full c (init c) tr) = true.
Proof. exact (log_sb_model_g true). Qed.

End Monitor.
