(** Which samples get an allocation record: the [is_empty] gate of the
    recording loop. *)
From DivanV Require Import Base.Res Model.Stats.
Local Open Scope N_scope.

Lemma tallies_is_empty_spec i :
  tallies_is_empty i = true <->
  forall op, t_count (ai_tally op i) = 0 /\ t_size (ai_tally op i) = 0.
Proof.
  unfold tallies_is_empty, tally_row_empty, tallies_of_info.
  cbn [flat_map all_ops app forallb]. split.
  - intros H. repeat (apply andb_true_iff in H; destruct H as [? H]).
    intros []; split; apply N.eqb_eq; assumption.
  - intros H. repeat (apply andb_true_iff; split); try reflexivity; apply N.eqb_eq, H.
Qed.

(** All keys of the map are below [k]: the sample indices handed out so far. *)
Definition keys_lt (m : list (N * alloc_info)) (k : N) : Prop := Forall (fun p => fst p < k) m.

Lemma keys_lt_le m k k' : keys_lt m k -> k <= k' -> keys_lt m k'.
Proof. intros H Hk. eapply Forall_impl; [|exact H]. cbn beta. intros p Hp. apply N.lt_le_trans with k; assumption. Qed.

Lemma find_keys_lt m k j : keys_lt m k -> k <= j -> alist_find j m = None.
Proof.
  induction m as [|[key v] r IH]; intros H Hj; [reflexivity|]. inversion H as [|? ? Hk Hr]; subst.
  cbn [alist_find]. cbn [fst] in Hk. destruct (key =? j) eqn:E; [apply N.eqb_eq in E; lia|]. apply IH; assumption.
Qed.

Definition gate (o : option alloc_info) : option alloc_info :=
  match o with
  | Some i => if tallies_is_empty i then None else Some i
  | None => None
  end.

Lemma record_alloc_infos_spec infos : forall k m,
  keys_lt m k ->
  keys_lt (record_alloc_infos k infos m) (k + N.of_nat (length infos)) /\
  (nodup_keys m = true -> nodup_keys (record_alloc_infos k infos m) = true) /\
  forall j, alist_find j (record_alloc_infos k infos m) =
            if j <? k then alist_find j m else gate (nth_error infos (N.to_nat (j - k))).
Proof.
  induction infos as [|i r IH]; intros k m Hm; cbn [record_alloc_infos length].
  - split; [apply (keys_lt_le _ _ _ Hm), N.le_add_r|]. split; [auto|]. intros j.
    destruct (j <? k) eqn:E; [reflexivity|]. apply N.ltb_ge in E.
    rewrite (find_keys_lt m k j Hm E). destruct (N.to_nat (j - k)); reflexivity.
  - pose proof (find_keys_lt m k k Hm (N.le_refl k)) as Hk.
    destruct (IH (k + 1) (if tallies_is_empty i then m else (k, i) :: m)) as (IH1 & IH2 & IH3).
    { assert (keys_lt m (k + 1)) by apply (keys_lt_le _ _ _ Hm), N.le_add_r.
      destruct (tallies_is_empty i); [assumption|constructor; [cbn [fst]; lia|assumption]]. }
    split; [|split].
    + rewrite Nat2N.inj_succ, <- N.add_1_l, N.add_assoc. exact IH1.
    + intros Hn. apply IH2. destruct (tallies_is_empty i); [exact Hn|]. cbn [nodup_keys]. rewrite Hk. exact Hn.
    + intros j. rewrite IH3. clear IH1 IH2 IH3.
      destruct (j <? k + 1) eqn:E1; destruct (j <? k) eqn:E2;
        try apply N.ltb_lt in E1; try apply N.ltb_ge in E1; try apply N.ltb_lt in E2; try apply N.ltb_ge in E2; try lia.
      * destruct (tallies_is_empty i); [reflexivity|]. cbn [alist_find].
        destruct (k =? j) eqn:E; [apply N.eqb_eq in E; lia|reflexivity].
      * assert (j = k) by lia. subst j. rewrite N.sub_diag. cbn [N.to_nat nth_error gate].
        destruct (tallies_is_empty i); [exact Hk|]. cbn [alist_find]. rewrite N.eqb_refl. reflexivity.
      * replace (N.to_nat (j - k)) with (S (N.to_nat (j - (k + 1)))) by lia. reflexivity.
Qed.

(** [C05_alloc_gate]: sample [j] has an allocation record iff one of its eight
    tally figures is not 0, and the record is its own info. *)
Theorem alloc_gate infos j :
  alist_find j (record_alloc_infos 0 infos []) =
  match nth_error infos (N.to_nat j) with
  | Some i => if tallies_is_empty i then None else Some i
  | None => None
  end.
Proof.
  destruct (record_alloc_infos_spec infos 0 [] ltac:(constructor)) as (_ & _ & ->).
  rewrite N.sub_0_r. destruct j; reflexivity.
Qed.

Lemma list_eqb_refl l : list_eqb l l = true.
Proof. induction l as [|a r IH]; [reflexivity|]. cbn [list_eqb]. rewrite N.eqb_refl. exact IH. Qed.

Lemma records_from_ok infos suffix : forall k,
  (forall t, nth_error suffix t = nth_error infos (N.to_nat k + t)) ->
  alloc_records_from k (map tallies_of_info suffix) (record_alloc_infos 0 infos []) = true.
Proof.
  induction suffix as [|i r IH]; intros k H; [reflexivity|]. cbn [map alloc_records_from].
  rewrite alloc_gate. pose proof (H 0%nat) as H0. cbn [nth_error] in H0. rewrite Nat.add_0_r in H0. rewrite <- H0.
  apply andb_true_iff. split.
  - unfold tallies_is_empty. destruct (tally_row_empty (tallies_of_info i)) eqn:E; cbn [negb andb];
      [reflexivity|apply list_eqb_refl].
  - apply IH. intros t. specialize (H (S t)). cbn [nth_error] in H. rewrite H. f_equal. lia.
Qed.

(** The specification evaluated on the real runs' dumps holds of the gate model. *)
Theorem alloc_records_model_sb infos :
  alloc_records_sb (map tallies_of_info infos) (record_alloc_infos 0 infos []) = true.
Proof.
  destruct (record_alloc_infos_spec infos 0 [] ltac:(constructor)) as (Hk & Hn & _).
  unfold alloc_records_sb. rewrite records_from_ok, Hn by (intros; reflexivity). rewrite andb_true_r.
  apply forallb_forall. intros p Hp. unfold keys_lt in Hk. rewrite Forall_forall in Hk.
  rewrite map_length. apply N.ltb_lt, Hk, Hp.
Qed.

Definition alloc_inv (st : nat * list (N * alloc_info)) (kept : list alloc_info) : Prop :=
  fst st = length kept /\ keys_lt (snd st) (N.of_nat (fst st)) /\
  forall j, alist_find j (snd st) = gate (nth_error kept (N.to_nat j)).

Lemma alloc_inv_empty : alloc_inv (0%nat, []) [].
Proof. split; [reflexivity|]. split; [constructor|]. intros j. cbn. destruct (N.to_nat j); reflexivity. Qed.

Lemma alloc_round_inv st kept round :
  alloc_inv st kept ->
  alloc_inv (record_alloc_round st round) ((if fst round then [] else kept) ++ snd round).
Proof.
  intros Hinv. destruct round as [tune infos]. unfold record_alloc_round. cbn [fst snd].
  assert (alloc_inv (if tune then (0%nat, []) else st) (if tune then [] else kept)) as H0
    by (destruct tune; [apply alloc_inv_empty|exact Hinv]).
  set (st0 := if tune then (0%nat, []) else st) in *. set (k0 := if tune then [] else kept) in *.
  destruct H0 as (Hn & Hk & Hf).
  destruct (record_alloc_infos_spec infos _ _ Hk) as (Hk' & _ & Hf').
  split; [|split]; cbn [fst snd].
  - rewrite app_length, Hn. reflexivity.
  - rewrite Nat2N.inj_add. exact Hk'.
  - intros j. rewrite Hf'. clear Hk' Hf'.
    destruct (j <? N.of_nat (fst st0)) eqn:E; [apply N.ltb_lt in E|apply N.ltb_ge in E].
    + rewrite Hf. rewrite nth_error_app1 by (rewrite <- Hn; lia). reflexivity.
    + rewrite nth_error_app2 by (rewrite <- Hn; lia). f_equal. f_equal. rewrite <- Hn. lia.
Qed.

Lemma alloc_rounds_inv rounds : forall st kept,
  alloc_inv st kept ->
  alloc_inv (fold_left record_alloc_round rounds st)
            (fold_left (fun (kept : list alloc_info) (round : bool * list alloc_info) =>
                          (if fst round then [] else kept) ++ snd round) rounds kept).
Proof.
  induction rounds as [|r rest IH]; intros st kept H; cbn [fold_left]; [exact H|].
  apply IH. apply alloc_round_inv. exact H.
Qed.

(** [C05_alloc_gate_rounds]: after any sequence of tuning and collecting
    rounds, the number of stored samples is that of the kept ones, and stored
    sample [j] has an allocation record iff *its own* tally is not empty — never
    the record of a discarded sample with the same index. *)
Theorem alloc_gate_rounds rounds :
  fst (record_alloc_rounds rounds) = length (kept_infos rounds) /\
  forall j, alist_find j (snd (record_alloc_rounds rounds)) =
            match nth_error (kept_infos rounds) (N.to_nat j) with
            | Some i => if tallies_is_empty i then None else Some i
            | None => None
            end.
Proof.
  destruct (alloc_rounds_inv rounds _ _ alloc_inv_empty) as (H1 & _ & H3). split; [exact H1|exact H3].
Qed.

(** Lazy initialisation: the first call allocates in a tuning sample that is
    discarded; the recorded samples allocate nothing and have no record. *)
Example lazy_init_leaves_no_record :
  let a := {| ai_grow := tally_zero; ai_shrink := tally_zero; ai_alloc := {| t_count := 1; t_size := 24 |};
              ai_dealloc := {| t_count := 1; t_size := 24 |}; ai_max_count := 1; ai_max_size := 24 |} in
  let z := {| ai_grow := tally_zero; ai_shrink := tally_zero; ai_alloc := tally_zero;
              ai_dealloc := tally_zero; ai_max_count := 0; ai_max_size := 0 |} in
  record_alloc_rounds [(true, [a]); (true, [z]); (true, [z]); (false, [z]); (false, [z])] = (3%nat, []).
Proof. reflexivity. Qed.

(** A sample whose timed section only frees memory does get a record. *)
Example free_only_sample_is_recorded :
  let i := {| ai_grow := tally_zero; ai_shrink := tally_zero; ai_alloc := tally_zero;
              ai_dealloc := {| t_count := 1; t_size := 688 |}; ai_max_count := 0; ai_max_size := 0 |} in
  let z := {| ai_grow := tally_zero; ai_shrink := tally_zero; ai_alloc := tally_zero;
              ai_dealloc := tally_zero; ai_max_count := 0; ai_max_size := 0 |} in
  record_alloc_infos 0 [z; i] [] = [(1, i)].
Proof. reflexivity. Qed.
