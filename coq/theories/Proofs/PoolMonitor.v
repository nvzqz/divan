(** The trace monitor [PoolMon.check] (the boolean specification evaluated on
    implementation traces) accepts the model's own executions: no violation
    clause on any prefix of any execution, and "complete" at the final state. *)

From DivanV Require Import Model.Pool Proofs.Pool Proofs.PoolCalls Proofs.PoolSlots Proofs.ListFacts.
From Coq Require Import Arith Lia List Bool.
Import ListNotations.
Import PoolM PoolMon.

Arguments Nat.max : simpl never.

Definition lift (d : call) : nat * nat * nat := (fst d, snd d, snd d).

Definition is_done (c : cstate) : bool := match c with CDone => true | _ => false end.

(** The monitor state that goes with a model state.  The monitor looks at the
    panicking subset [pan] only when a broadcast returns; see [agree] below. *)
Record Sim (s : state) (m : mon) : Prop := {
  M_b : m_b m = cur s;
  M_open : m_open m = in_broadcast (cst s);
  M_n : in_broadcast (cst s) = true -> m_n m = bcast_n (cst s);
  M_rc : m_rc m = rc s;
  M_zero : m_zero m = true -> rc s = 0;
  M_serv : forall j w, nth_error (ws s) j = Some w -> any_pre w = true -> serving (m_serv m) (S j) = cur s;
  M_calls : m_calls m = map lift (rev (calls s));
  M_spawned : m_spawned m = length (ws s);
  M_sp0 : in_broadcast (cst s) = true -> length (ws s) = Nat.max (m_spawned0 m) (bcast_n (cst s));
  M_exited : forall j w, nth_error (ws s) j = Some w -> w = WExit -> In (S j) (m_exited m);
  M_dropped : m_dropped m = is_done (cst s);
  M_rets : m_rets m = length (returned s);
  M_fail : m_fail m = []
}.

Lemma sim_init scr : Sim (init scr) mon0.
Proof.
  constructor; cbn; auto.
  all: try discriminate.
  all: try (intros j w H; destruct j; discriminate).
Qed.

Lemma in_broadcast_not_done c : in_broadcast c = true -> is_done c = false.
Proof. now destruct c. Qed.

Lemma zero_false s m : Sim s m -> 1 <= rc s -> m_zero m = false.
Proof.
  intros M H. destruct (m_zero m) eqn:E; auto. apply (M_zero _ _ M) in E. lia.
Qed.

Definition with_spawned (m : mon) (k : nat) : mon :=
  {| m_b := m_b m; m_n := m_n m; m_open := m_open m; m_rc := m_rc m; m_zero := m_zero m; m_serv := m_serv m;
     m_calls := m_calls m; m_spawned := k; m_spawned0 := m_spawned0 m; m_exited := m_exited m;
     m_dropped := m_dropped m; m_rets := m_rets m; m_fail := m_fail m |}.

Lemma spawn_fold pan extra : forall m,
  fold_left (mstep pan) (map VSpawn (seq (S (m_spawned m)) extra)) m = with_spawned m (m_spawned m + extra).
Proof.
  induction extra as [|e IH]; intros m.
  - cbn. destruct m; unfold with_spawned; cbn. f_equal. lia.
  - cbn [seq map fold_left]. rewrite <- seq_shift.
    set (m1 := mstep pan m (VSpawn (S (m_spawned m)))).
    assert (E1 : m1 = with_spawned m (S (m_spawned m))).
    { unfold m1, mstep, with_spawned. now rewrite Nat.eqb_refl. }
    rewrite seq_shift. change (S (S (m_spawned m))) with (S (m_spawned (with_spawned m (S (m_spawned m))))).
    rewrite E1, IH. unfold with_spawned; cbn. f_equal. lia.
Qed.

Lemma count3_lift b i l : count3 b i (map lift (rev l)) = count_call (b, i) l.
Proof.
  unfold count3, count_call. rewrite <- (filter_rev_length (call_eqb (b, i)) l).
  induction (rev l) as [|h t IH]; cbn; auto.
  unfold call_eqb at 1. cbn. rewrite (Nat.eqb_sym b), (Nat.eqb_sym i).
  destruct (Nat.eqb (fst h) b && Nat.eqb (snd h) i); cbn; auto.
Qed.

Lemma filter_b_lift b l :
  length (filter (fun c => Nat.eqb (fst (fst c)) b) (map lift (rev l)))
  = length (filter (fun d : call => Nat.eqb (fst d) b) l).
Proof.
  rewrite <- (filter_rev_length (fun d : call => Nat.eqb (fst d) b) l).
  induction (rev l) as [|h t IH]; cbn; auto.
  destruct (Nat.eqb (fst h) b); cbn; auto.
Qed.

Lemma on_thread_lift b i l : on_thread b i (map lift l) = true.
Proof.
  unfold on_thread. apply forallb_forall. intros c Hc. apply in_map_iff in Hc. destruct Hc as (d & <- & _).
  cbn. destruct (Nat.eqb (fst d) b && Nat.eqb (snd d) i) eqn:E; auto.
  apply andb_prop in E. tauto.
Qed.

Lemma once_ok_intro s m n :
  Sim s m -> m_n m = n -> once_per_index s (cur s) n = true -> once_ok m = true.
Proof.
  intros M Hn H. unfold once_per_index in H. apply andb_prop in H. destruct H as [H1 H2].
  unfold once_ok. rewrite (M_b _ _ M), Hn, (M_calls _ _ M). apply andb_true_intro. split.
  - apply forallb_forall. intros i Hi. rewrite forallb_forall in H1. specialize (H1 _ Hi).
    rewrite count3_lift, H1. cbn. apply on_thread_lift.
  - now rewrite filter_b_lift.
Qed.

Lemma serv_set_nth s m j w w' :
  Sim s m -> nth_error (ws s) j = Some w -> (any_pre w' = true -> any_pre w = true) ->
  forall j' x, nth_error (set_nth j w' (ws s)) j' = Some x -> any_pre x = true -> serving (m_serv m) (S j') = cur s.
Proof.
  intros M Hj P. apply (set_nth_cases (fun x => any_pre x = true) (fun j' => serving (m_serv m) (S j') = cur s)).
  - exact (nth_error_lt _ _ _ Hj).
  - apply M.
  - intro X. exact (M_serv _ _ M j w Hj (P X)).
Qed.

Lemma exited_set_nth s m j w' :
  Sim s m -> j < length (ws s) -> w' <> WExit ->
  forall j' x, nth_error (set_nth j w' (ws s)) j' = Some x -> x = WExit -> In (S j') (m_exited m).
Proof.
  intros M Lt N. apply (set_nth_cases (fun x => x = WExit) (fun j' => In (S j') (m_exited m))); [exact Lt|apply M|contradiction].
Qed.

Lemma sim_begin c pan s m n rest :
  Inv s -> Sim s m -> cst s = CIdle ->
  Sim (st_begin s n rest) (fold_left (mstep pan) (events_of c s (EBegin n)) m).
Proof.
  intros I M Hc. destruct (idle_appended s (n - length (ws s)) I Hc) as [NP NE].
  cbn [events_of fold_left].
  set (m2 := mstep pan (mstep pan m (VBcast n)) (VNew n)).
  assert (Sp : m_spawned m2 = length (ws s)) by (unfold m2; cbn; apply M).
  rewrite <- Sp, spawn_fold. rewrite Sp. unfold m2. clear Sp m2.
  destruct (begin_cst n) as [B' N'].
  constructor; cbn; rewrite ?(in_broadcast_not_done _ B'), ?B', ?N', ?app_length, ?repeat_length, ?(M_open _ _ M),
    ?(M_dropped _ _ M), ?Hc; cbn; auto; try apply M; try discriminate.
  - now rewrite (M_b _ _ M).
  - intros j w E P. pose proof (Forall_nth_error _ _ _ _ NP E) as X. cbn in X. congruence.
  - intros _. rewrite (M_spawned _ _ M). lia.
  - intros j w E ->. now destruct (Forall_nth_error _ _ _ _ NE E).
Qed.

Lemma sim_send c pan s m j n :
  Sim s m -> cst s = CSend (S j) n -> nth_error (ws s) j = Some WIdle ->
  Sim (st_send s (S j) n) (fold_left (mstep pan) (events_of c s (ESend (S j))) m).
Proof.
  intros M Hc Hj.
  pose proof (nth_error_lt _ _ _ Hj) as Lt.
  pose proof (M_n _ _ M) as Mn. pose proof (M_sp0 _ _ M) as Msp0. rewrite Hc in Mn, Msp0.
  destruct (send_cst (S j) n) as [B' N'].
  cbn [events_of fold_left mstep].
  constructor; cbn; rewrite ?(in_broadcast_not_done _ B'), ?B', ?N', ?set_nth_length, ?(M_open _ _ M), ?(M_dropped _ _ M),
    ?Hc; auto; try apply M.
  - apply (set_nth_cases (fun w => any_pre w = true)
             (fun j' => (if Nat.eqb (S j') (S j) then m_b m else serving (m_serv m) (S j')) = cur s)); auto.
    + intros j' w E P. destruct (Nat.eqb (S j') (S j)); [apply M|]. eapply (M_serv _ _ M); eauto.
    + intros _. rewrite Nat.eqb_refl. apply M.
  - apply (exited_set_nth s m j _ M Lt). discriminate.
Qed.

Lemma sim_log s m s' x :
  Sim s m -> in_broadcast (cst s) = true ->
  calls s' = calls s ++ [(cur s, x)] ->
  cur s' = cur s -> rc s' = rc s -> returned s' = returned s ->
  in_broadcast (cst s') = true -> bcast_n (cst s') = bcast_n (cst s) ->
  length (ws s') = length (ws s) ->
  (forall j w, nth_error (ws s') j = Some w -> any_pre w = true -> serving (m_serv m) (S j) = cur s) ->
  (forall j w, nth_error (ws s') j = Some w -> w = WExit -> In (S j) (m_exited m)) ->
  Sim s' {| m_b := m_b m; m_n := m_n m; m_open := m_open m; m_rc := m_rc m; m_zero := m_zero m; m_serv := m_serv m;
            m_calls := (m_b m, x, x) :: m_calls m; m_spawned := m_spawned m; m_spawned0 := m_spawned0 m;
            m_exited := m_exited m; m_dropped := m_dropped m; m_rets := m_rets m; m_fail := m_fail m |}.
Proof.
  intros M B Hca Hu Hr Hre B' N' Hl Hs He.
  constructor; cbn.
  - rewrite Hu. apply M.
  - now rewrite (M_open _ _ M), B, B'.
  - intros _. rewrite N'. now apply (M_n _ _ M).
  - rewrite Hr. apply M.
  - rewrite Hr. apply M.
  - rewrite Hu. exact Hs.
  - now rewrite Hca, rev_unit, (M_calls _ _ M), (M_b _ _ M).
  - rewrite Hl. apply M.
  - intros _. rewrite Hl, N'. now apply (M_sp0 _ _ M).
  - exact He.
  - now rewrite (M_dropped _ _ M), !in_broadcast_not_done.
  - rewrite Hre. apply M.
  - apply M.
Qed.

Lemma sim_caller s s' m :
  Sim s m -> ws s' = ws s -> rc s' = rc s -> cur s' = cur s -> calls s' = calls s ->
  returned s' = returned s ->
  in_broadcast (cst s') = in_broadcast (cst s) -> bcast_n (cst s') = bcast_n (cst s) ->
  is_done (cst s') = is_done (cst s) ->
  Sim s' m.
Proof.
  intros M Hw Hr Hu Hca Hre B N D.
  constructor.
  - rewrite Hu. apply M.
  - rewrite B. apply M.
  - rewrite B, N. apply M.
  - rewrite Hr. apply M.
  - rewrite Hr. apply M.
  - rewrite Hw, Hu. apply M.
  - rewrite Hca. apply M.
  - rewrite Hw. apply M.
  - rewrite Hw, B, N. apply M.
  - rewrite Hw. apply M.
  - rewrite D. apply M.
  - rewrite Hre. apply M.
  - apply M.
Qed.

Definition agree (pan : list (nat * nat)) (s : state) : Prop :=
  forall d, In d (calls s) -> (In d (panics s) <-> pan_mem (fst d) (snd d) pan = true).

Lemma results_at_return pan scr s n :
  Inv s -> Inv2 scr s -> InvS s -> agree pan s -> cst s = CLoad n -> rc s = 0 ->
  slots_eqb (slots s) (expected_results pan (cur s) n) = true.
Proof.
  intros I J SS A Hc Hr.
  assert (B : in_broadcast (cst s) = true) by now rewrite Hc.
  rewrite (S_cur _ SS B), Hc. cbn [bcast_n].
  replace (expected_results pan (cur s) n) with (expected_slots s (cur s) n); [apply slots_eqb_refl|].
  unfold expected_slots, expected_results. apply map_ext_in. intros i Hi. apply in_seq in Hi.
  unfold expected_slot.
  assert (Cl : In (cur s, i) (calls s)) by (apply (all_called_at_return scr s n I J Hc Hr); lia).
  assert (E : vmem (cur s, i) (panics s) = pan_mem (cur s) i pan).
  { apply eq_true_iff_eq. rewrite vmem_In. exact (A _ Cl). }
  rewrite (proj2 (vmem_In _ _) Cl), E. now destruct (pan_mem (cur s) i pan).
Qed.

Lemma sim_load c pan scr s m n :
  good c -> Inv s -> Inv2 scr s -> InvS s -> agree pan s -> Sim s m -> cst s = CLoad n ->
  Sim (if leave c s then do_return s n (load_view c s) (token s) else st_topark s n (load_view c s))
      (fold_left (mstep pan) (events_of c s ELoad) m).
Proof.
  intros G I J SS A M Hc. cbn [events_of]. rewrite leave_good by auto.
  destruct (Nat.eqb_spec (rc s) 0) as [E|E].
  - assert (B : in_broadcast (cst s) = true) by now rewrite Hc.
    assert (O : once_ok m = true).
    { apply (once_ok_intro s m n M).
      - rewrite (M_n _ _ M B), Hc. reflexivity.
      - apply once_per_index_intro; [apply J|]. eapply all_called_at_return; eauto. }
    assert (Rs : slots_eqb (slots s) (expected_results pan (m_b m) (m_n m)) = true).
    { rewrite (M_b _ _ M), (M_n _ _ M B), Hc. cbn [bcast_n]. eapply results_at_return; eauto. }
    assert (Sp : Nat.eqb (m_spawned m) (Nat.max (m_spawned0 m) (m_n m)) = true).
    { apply Nat.eqb_eq. rewrite (M_spawned _ _ M), (M_n _ _ M B). now apply (M_sp0 _ _ M). }
    assert (Z : Nat.eqb (m_rc m) 0 = true) by (apply Nat.eqb_eq; now rewrite (M_rc _ _ M)).
    cbn [fold_left mstep]. rewrite O, Rs, Sp, Z, (M_open _ _ M), B.
    constructor; cbn; rewrite ?(M_dropped _ _ M), ?Hc; try apply M; try discriminate; try reflexivity.
    rewrite app_length, (M_rets _ _ M). cbn. lia.
  - cbn [fold_left mstep]. apply (sim_caller s _ m M); try reflexivity; cbn; rewrite ?Hc; easy.
Qed.

Lemma touch_worker s m j w :
  Inv s -> Sim s m -> nth_error (ws s) j = Some w -> any_pre w = true -> touch m (S j) = m.
Proof.
  intros I M Hj P.
  destruct (wf_pre _ _ _ (wf_at s _ _ I Hj) P) as [_ Al].
  unfold touch.
  rewrite (M_open _ _ M), <- (I_alive s I), Al, (M_serv _ _ M j w Hj P), (M_b _ _ M), Nat.eqb_refl.
  now rewrite (zero_false s m M (pre_rc_pos s j w I Hj P)).
Qed.

Lemma sim_wrun c pan s m j b p :
  Inv s -> Sim s m -> nth_error (ws s) j = Some (WRun b) ->
  Sim (st_wrun s (S j) b p) (fold_left (mstep pan) (events_of c s (EWRun (S j) p)) m).
Proof.
  intros I M Hj.
  destruct (at_wrun s j b I Hj) as (-> & B & _). pose proof (nth_error_lt _ _ _ Hj) as Lt.
  cbn [events_of fold_left mstep]. change (Nat.eqb (S j) 0) with false. cbn iota.
  rewrite (touch_worker s m j _ I M Hj eq_refl), (M_serv _ _ M j _ Hj eq_refl).
  replace (cur s, S j, S j) with (m_b m, S j, S j) by (now rewrite (M_b _ _ M)).
  apply (sim_log s m (st_wrun s (S j) (cur s) p) (S j) M B); try reflexivity; cbn; auto.
  - apply set_nth_length.
  - now apply (serv_set_nth s m j _ _ M Hj).
  - apply (exited_set_nth s m j _ M Lt). discriminate.
Qed.

Lemma sim_worker s s' m m' j w w' :
  Sim s m -> nth_error (ws s) j = Some w ->
  ws s' = set_nth j w' (ws s) -> cst s' = cst s -> cur s' = cur s -> calls s' = calls s ->
  returned s' = returned s ->
  (any_pre w' = true -> any_pre w = true) -> w' <> WExit ->
  m_b m' = m_b m -> m_n m' = m_n m -> m_open m' = m_open m -> m_rc m' = rc s' ->
  (m_zero m' = true -> rc s' = 0) -> m_serv m' = m_serv m -> m_calls m' = m_calls m -> m_spawned m' = m_spawned m ->
  m_spawned0 m' = m_spawned0 m -> m_exited m' = m_exited m -> m_dropped m' = m_dropped m -> m_rets m' = m_rets m ->
  m_fail m' = [] ->
  Sim s' m'.
Proof.
  intros M Hj Hw Hc Hu Hca Hre NP NE E1 E2 E3 E4 E5 E6 E7 E8 E9 E10 E11 E12 E13.
  pose proof (nth_error_lt _ _ _ Hj) as Lt.
  constructor; rewrite ?Hc, ?Hu, ?Hca, ?Hre, ?E1, ?E2, ?E3, ?E6, ?E7, ?E8, ?E9, ?E10, ?E11, ?E12; try apply M; auto.
  - rewrite Hw. exact (serv_set_nth s m j w w' M Hj NP).
  - rewrite Hw, set_nth_length. apply M.
  - rewrite Hw, set_nth_length. apply M.
  - rewrite Hw. exact (exited_set_nth s m j w' M Lt NE).
Qed.

Lemma sim_wdec c pan s m j b :
  Inv s -> Sim s m -> nth_error (ws s) j = Some (WDec b) ->
  Sim (st_wdec c s (S j) b) (fold_left (mstep pan) (events_of c s (EWDec (S j))) m).
Proof.
  intros I M Hj. pose proof (pre_rc_pos s j _ I Hj eq_refl) as R.
  cbn [events_of fold_left mstep]. rewrite (touch_worker s m j _ I M Hj eq_refl).
  assert (Z : m_zero m = false) by (eapply zero_false; eauto).
  assert (NZ : Nat.eqb (m_rc m) 0 = false) by (apply Nat.eqb_neq; rewrite (M_rc _ _ M); lia).
  rewrite NZ, Z.
  apply (sim_worker s (st_wdec c s (S j) b) m _ j (WDec b)
           (if Nat.eqb (rc s) (c_unpark_old c) then WUnpark b else WIdle)); auto; cbn; try apply M.
  - destruct (Nat.eqb (rc s) (c_unpark_old c)); discriminate.
  - now rewrite (M_rc _ _ M).
  - rewrite (M_rc _ _ M). apply Nat.eqb_eq.
Qed.

Lemma sim_wexit c pan s m j :
  Sim s m -> cst s = CDone -> nth_error (ws s) j = Some WIdle ->
  Sim (st_wexit s (S j)) (fold_left (mstep pan) (events_of c s (EWExit (S j))) m).
Proof.
  intros M Hc Hj.
  assert (D : m_dropped m = true) by now rewrite (M_dropped _ _ M), Hc.
  pose proof (nth_error_lt _ _ _ Hj) as Lt.
  cbn [events_of fold_left mstep]. rewrite D. cbn [mstep]. rewrite D.
  constructor; cbn; rewrite ?set_nth_length, ?(M_open _ _ M), ?Hc; try apply M; try discriminate; try reflexivity.
  - apply (serv_set_nth s m j _ WExit M Hj). discriminate.
  - apply (set_nth_cases (fun w => w = WExit) (fun j' => S j = S j' \/ In (S j') (m_exited m))); auto.
    intros j' w E X. right. eapply (M_exited _ _ M); eauto.
Qed.

Theorem sim_step c pan scr s m l s' :
  good c -> Inv s -> Inv2 scr s -> InvS s -> agree pan s -> Sim s m ->
  step c s l = Some s' ->
  Sim s' (fold_left (mstep pan) (events_of c s l) m).
Proof.
  intros G I J SS A M H.
  destruct (step_inv _ _ _ _ H) as [n rest Hc Es|j n Hc Hj|n p Hc|n Hc|n Hc Ht|n Hc|j b p Hj|j b Hj|j b Hj|j b Hj|Hc Es|j Hc Hj].
  (* [park] returns, by token or spuriously: no event the monitor looks at *)
  5, 6: cbn [events_of]; rewrite (good_loop c G); cbn;
    apply (sim_caller s _ m M); try reflexivity; cbn; rewrite ?Hc; easy.
  - now apply sim_begin.
  - now apply sim_send.
  - cbn [events_of fold_left mstep]. change (Nat.eqb 0 0) with true. cbn iota.
    apply (sim_log s m (st_run0 s n p) 0 M); try reflexivity; cbn; try (now rewrite Hc); try discriminate; apply M.
  - now apply (sim_load c pan scr).
  - now apply sim_wrun.
  - cbn [events_of fold_left mstep]. rewrite (touch_worker s m j _ I M Hj eq_refl).
    apply (sim_worker s (st_wclone s (S j) b) m m j (WClone b) (WDec b)); auto; try apply M. discriminate.
  - now apply sim_wdec.
  - cbn [events_of fold_left mstep].
    apply (sim_worker s (st_wunpark s (S j)) m m j (WUnpark b) WIdle); auto; try apply M; discriminate.
  - cbn [events_of fold_left mstep]. rewrite (M_open _ _ M), Hc.
    constructor; cbn; rewrite ?Hc; try apply M; try discriminate; reflexivity.
  - now apply sim_wexit.
Qed.

Lemma pan_mem_In b i pan : pan_mem b i pan = true <-> In (b, i) pan.
Proof.
  unfold pan_mem. rewrite existsb_exists. split.
  - intros ([b' i'] & H & E). cbn in E. apply andb_prop in E. destruct E as [E1 E2].
    apply Nat.eqb_eq in E1, E2. now subst.
  - intro H. exists (b, i). split; auto. cbn. now rewrite !Nat.eqb_refl.
Qed.

(** Later steps add to [panics] only calls that are new, since the log has no
    duplicates: whether a logged call panicked is settled when it is logged. *)
Lemma agree_final c scr : good c -> forall ls s s',
  reachable c scr s -> run c s ls = Some s' -> agree (panics s') s.
Proof.
  intros G. induction ls as [|l ls IH]; cbn; intros s s' R H d Hd.
  - injection H as <-. destruct d. symmetry. apply pan_mem_In.
  - destruct (step c s l) as [s1|] eqn:E; [|discriminate].
    assert (R1 : reachable c scr s1) by (econstructor; eauto).
    pose proof (J_nodup _ _ (inv2_reachable _ _ _ G R1)) as N.
    destruct (step_log_effect c s l s1 G (inv_reachable _ _ _ G R) E)
      as [s1 C P _ _ _ _ _ _ _|s1 x p _ _ _ C P _ _ _ _ _ _ _|n rest _ _|n cv tok _ _];
      try exact (IH _ _ R1 H d Hd).
    + rewrite <- P. apply (IH _ _ R1 H). now rewrite C.
    + rewrite <- (IH _ _ R1 H d) by (rewrite C; apply in_snoc; auto).
      rewrite P. destruct p; [rewrite in_snoc|]; split; auto. intros [X| ->]; auto.
      rewrite C in N. apply NoDup_remove_2 in N. rewrite app_nil_r in N. contradiction.
Qed.

Lemma sim_run c scr pan : good c -> forall ls s m s',
  reachable c scr s -> Sim s m -> run c s ls = Some s' -> pan = panics s' ->
  Sim s' (fold_left (mstep pan) (trace c s ls) m).
Proof.
  intros G. induction ls as [|l ls IH]; cbn [run trace]; intros s m s' R M H Hp.
  - inversion H; subst. exact M.
  - pose proof (agree_final c scr G (l :: ls) s s' R H) as A. rewrite <- Hp in A.
    destruct (step c s l) as [s1|] eqn:E; [|discriminate].
    rewrite fold_left_app. apply (IH s1); auto.
    + econstructor; eauto.
    + apply (sim_step c pan scr); auto.
      * eapply inv_reachable; eauto.
      * eapply inv2_reachable; eauto.
      * eapply invs_reachable; eauto.
Qed.

(** No clause of the monitor is violated on (any prefix of) any execution:
    every prefix of an execution is an execution. *)
Theorem monitor_safe c scr ls s' :
  good c -> run c (init scr) ls = Some s' ->
  violations (panics s') (trace c (init scr) ls) = [].
Proof.
  intros G H. unfold violations.
  apply (M_fail s'). eapply sim_run; eauto; [constructor|apply sim_init].
Qed.

(** At a final state the monitor reports the run complete: all broadcasts
    returned, pool dropped, every worker exited. *)
Theorem monitor_complete c scr ls s' :
  good c -> run c (init scr) ls = Some s' -> final s' = true ->
  check scr (panics s') (trace c (init scr) ls) = [].
Proof.
  intros G H F.
  assert (R : reachable c scr s') by (eapply run_reachable; eauto; constructor).
  assert (M : Sim s' (fold_left (mstep (panics s')) (trace c (init scr) ls) mon0)).
  { eapply sim_run; eauto; [constructor|apply sim_init]. }
  unfold check. set (m := fold_left (mstep (panics s')) (trace c (init scr) ls) mon0) in *.
  destruct (final_inv s' F) as [Hc Ex].
  assert (D : m_dropped m = true) by now rewrite (M_dropped _ _ M), Hc.
  assert (O : m_open m = false) by (rewrite (M_open _ _ M), Hc; reflexivity).
  assert (L : m_rets m = length scr).
  { rewrite (M_rets _ _ M). destruct (returned_is_script c scr s' G R F) as [E _]. rewrite <- E. now rewrite map_length. }
  assert (X : forallb (fun k => mem_nat k (m_exited m)) (seq 1 (m_spawned m)) = true).
  { apply forallb_forall. intros k Hk. apply in_seq in Hk. rewrite (M_spawned _ _ M) in Hk.
    destruct k as [|j]; [lia|].
    destruct (nth_error (ws s') j) as [w|] eqn:E; [|apply nth_error_None in E; lia].
    unfold mem_nat. apply existsb_exists. exists (S j). split; [|apply Nat.eqb_refl].
    apply (M_exited _ _ M j w E). exact (Forall_nth_error _ _ _ _ Ex E). }
  rewrite L, Nat.eqb_refl, D, O, X. cbn. apply M.
Qed.
