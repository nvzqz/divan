(** C01, panic safety: when the benchmarked function (or the generator) panics
    at any index, the part of the sample that ran plus what unwinding runs never
    misuses a cell, drops nothing twice and hands out nothing after its drop. *)

From DivanV Require Import Base.Res Model.Sample Proofs.Sample Proofs.ListFacts.
Local Open Scope nat_scope.

Lemma call_step_panic s i r c s' :
  exec_step s (Call i r c) = SOk s' -> exists s'', exec_step s (CallPanic i r c) = SOk s''.
Proof.
  unfold exec_step. cbn [act_index]. unfold cell_step.
  destruct (in_use_fault c (fst (s i))); [discriminate|]. intros _. eexists. reflexivity.
Qed.

Lemma exec_cut_call k : forall l s s',
  exec l s = SOk s' -> exists s'', exec (cut_at_call k l) s = SOk s''.
Proof.
  induction l as [|a l IH]; intros s s' H; cbn in *.
  - exists s. reflexivity.
  - destruct (exec_step s a) as [s1|f j] eqn:E; [|discriminate].
    destruct a; cbn [cut_at_call exec]; rewrite ?E; try (eapply IH; exact H).
    destruct (Nat.eqb i k).
    + destruct (call_step_panic s i r c s1 E) as (s2 & E2). cbn [exec]. rewrite E2. eexists. reflexivity.
    + cbn [exec]. rewrite E. eapply IH. exact H.
Qed.

Lemma exec_cut_gen k : forall l s s',
  exec l s = SOk s' -> exists s'', exec (cut_at_gen k l) s = SOk s''.
Proof.
  induction l as [|a l IH]; intros s s' H; cbn in *.
  - exists s. reflexivity.
  - destruct (exec_step s a) as [s1|f j] eqn:E; [|discriminate].
    destruct a; cbn [cut_at_gen exec]; rewrite ?E; try (eapply IH; exact H).
    destruct (Nat.eqb i k).
    + cbn. eexists. reflexivity.
    + cbn [exec]. rewrite E. eapply IH. exact H.
Qed.

Lemma exec_guard_waits n s : exec (repeat GuardWait n) s = SOk s.
Proof. induction n as [|n IH]; cbn; [reflexivity|exact IH]. Qed.

Lemma exec_cut_ok site k l s s' :
  exec l s = SOk s' -> exists s'', exec (cut_prog site k l) s = SOk s''.
Proof.
  intros H. unfold cut_prog, unwind_actions. rewrite exec_app.
  destruct site.
  - destruct (exec_cut_call k l s s' H) as (s2 & E). rewrite E. exists s2. apply exec_guard_waits.
  - destruct (exec_cut_gen k l s s' H) as (s2 & E). rewrite E. exists s2. apply exec_guard_waits.
Qed.

Fixpoint ndl_exec (l : list (oev nat)) (s : ndl) : option ndl :=
  match l with
  | [] => Some s
  | e :: rest => match ndl_step s e with Some s' => ndl_exec rest s' | None => None end
  end.

Lemma ndl_exec_run l : forall nd nd', ndl_exec l nd = Some nd' -> ndl_run l nd = true.
Proof.
  induction l as [|e l IH]; intros nd nd' H; cbn in *; [reflexivity|].
  destruct (ndl_step nd e); [eapply IH; exact H|discriminate].
Qed.

Lemma ndl_exec_app l1 l2 s :
  ndl_exec (l1 ++ l2) s = match ndl_exec l1 s with Some s' => ndl_exec l2 s' | None => None end.
Proof.
  revert s. induction l1 as [|e l1 IH]; intros s; cbn; [reflexivity|].
  destruct (ndl_step s e); [apply IH|reflexivity].
Qed.

(** A flag of the monitor is set only for a cell the store knows as dropped. *)
Definition rel (s : store) (nd : ndl) : Prop :=
  forall j, (ndl_in nd j = true -> fst (s j) = IDropped)
            /\ (ndl_out nd j = true -> snd (s j) = ODropped).

Lemma rel_upd_keep s nd i v :
  rel s nd ->
  (ndl_in nd i = true -> fst v = IDropped) -> (ndl_out nd i = true -> snd v = ODropped) ->
  rel (upd s i v) nd.
Proof.
  intros H Hi Ho j. unfold upd. destruct (Nat.eqb_spec j i) as [->|Hne]; [split; assumption|apply H].
Qed.

Lemma rel_upd_in s nd i so :
  rel s nd -> (ndl_out nd i = true -> so = ODropped) ->
  rel (upd s i (IDropped, so)) (mkNDL (upd (ndl_in nd) i true) (ndl_out nd)).
Proof.
  intros H Ho j. cbn. unfold upd. destruct (Nat.eqb_spec j i) as [->|Hne].
  - split; [reflexivity|exact Ho].
  - apply H.
Qed.

Lemma rel_upd_out s nd i si :
  rel s nd -> (ndl_in nd i = true -> si = IDropped) ->
  rel (upd s i (si, ODropped)) (mkNDL (ndl_in nd) (upd (ndl_out nd) i true)).
Proof.
  intros H Hi j. cbn. unfold upd. destruct (Nat.eqb_spec j i) as [->|Hne].
  - split; [exact Hi|reflexivity].
  - apply H.
Qed.

Lemma not_dropped_flag_in s nd :
  rel s nd -> forall i, fst (s i) <> IDropped -> ndl_in nd i = false.
Proof.
  intros H i Hn. destruct (ndl_in nd i) eqn:E; [|reflexivity].
  exfalso. apply Hn. apply (H i). exact E.
Qed.

Lemma not_dropped_flag_out s nd :
  rel s nd -> forall i, snd (s i) <> ODropped -> ndl_out nd i = false.
Proof.
  intros H i Hn. destruct (ndl_out nd i) eqn:E; [|reflexivity].
  exfalso. apply Hn. apply (H i). exact E.
Qed.

Lemma in_use_not_dropped c si : in_use_fault c si = None -> si <> IDropped.
Proof. destruct si, c; cbn; congruence. Qed.

Lemma in_drop_not_dropped c si : in_drop_fault c si = None -> si <> IDropped.
Proof. destruct si, c; cbn; congruence. Qed.

Lemma out_drop_not_dropped c so : out_drop_fault c so = None -> so <> ODropped.
Proof. destruct so, c; cbn; congruence. Qed.

(** One action: the flags it reads are down because the cells it reads are
    live, and where it raises a flag it drops the cell. *)
Lemma step_nd v a s s' nd :
  exec_step s a = SOk s' -> rel s nd ->
  exists nd', ndl_exec (obs1 v a) nd = Some nd' /\ rel s' nd'.
Proof.
  intros Hex Hrel. unfold exec_step in Hex.
  pose proof (not_dropped_flag_in s nd Hrel) as Fi. pose proof (not_dropped_flag_out s nd Hrel) as Fo.
  destruct a as [i|k i|i| | |i r c|i|i|i|i| | | |i c|i c|i r c|i| ]; cbn [act_index] in Hex;
    try (injection Hex as <-; exists nd; split; [cbn; try destruct (v_multi v); reflexivity|exact Hrel]);
    unfold cell_step in Hex; destruct (Hrel i) as [Ri Ro].
  - (* Gen *)
    destruct (fst (s i)) eqn:Hf; try discriminate. injection Hex as <-.
    exists nd. split; [cbn; destruct (v_gen v); reflexivity|].
    apply rel_upd_keep; [exact Hrel| |exact Ro]. rewrite Fi by congruence. discriminate.
  - (* Count *)
    destruct (in_use_fault InSlot (fst (s i))) eqn:Hu; [discriminate|]. injection Hex as <-.
    apply in_use_not_dropped in Hu.
    exists nd. split; [cbn; rewrite Fi by assumption; reflexivity|]. apply rel_upd_keep; assumption.
  - (* ForgetIn *)
    destruct (in_use_fault InSlot (fst (s i))) eqn:Hu; [discriminate|]. injection Hex as <-.
    apply in_use_not_dropped in Hu.
    exists nd. split; [reflexivity|]. apply rel_upd_keep; [exact Hrel| |exact Ro].
    rewrite Fi by assumption. discriminate.
  - (* Call *)
    destruct (in_use_fault c (fst (s i))) eqn:Hu; [discriminate|].
    destruct (snd (s i)) eqn:Ho; try discriminate. injection Hex as <-.
    apply in_use_not_dropped in Hu.
    exists nd. split; [cbn; rewrite Fi, Fo by congruence; reflexivity|].
    apply rel_upd_keep; [exact Hrel|rewrite Fi by assumption|rewrite Fo by congruence]; discriminate.
  - (* UserDropIn *)
    destruct (fst (s i)) eqn:Hf; try discriminate. injection Hex as <-.
    cbn. destruct (v_idrop v); cbn.
    + rewrite Fi by congruence. eexists. split; [reflexivity|]. apply rel_upd_in; assumption.
    + exists nd. split; [reflexivity|]. apply rel_upd_keep; auto.
  - (* StoreOut *)
    destruct (snd (s i)) eqn:Ho; try discriminate. injection Hex as <-.
    exists nd. split; [reflexivity|]. apply rel_upd_keep; [exact Hrel|exact Ri|].
    rewrite Fo by congruence. discriminate.
  - (* ForgetOut *)
    destruct (snd (s i)) eqn:Ho; try discriminate. injection Hex as <-.
    exists nd. split; [reflexivity|]. apply rel_upd_keep; [exact Hrel|exact Ri|].
    rewrite Fo by congruence. discriminate.
  - (* DiscardOut *)
    destruct (snd (s i)); try discriminate. injection Hex as <-.
    exists nd. split; [reflexivity|]. apply rel_upd_keep; auto.
  - (* DropOut *)
    destruct (out_drop_fault c (snd (s i))) eqn:Hu; [discriminate|]. injection Hex as <-.
    apply out_drop_not_dropped in Hu.
    cbn. destruct (v_odrop v); cbn.
    + rewrite Fo by assumption. eexists. split; [reflexivity|]. apply rel_upd_out; assumption.
    + exists nd. split; [reflexivity|]. apply rel_upd_keep; auto.
  - (* DropIn *)
    destruct (in_drop_fault c (fst (s i))) eqn:Hu; [discriminate|]. injection Hex as <-.
    apply in_drop_not_dropped in Hu.
    cbn. destruct (v_idrop v); cbn.
    + rewrite Fi by assumption. eexists. split; [reflexivity|]. apply rel_upd_in; assumption.
    + exists nd. split; [reflexivity|]. apply rel_upd_keep; auto.
  - (* CallPanic: an argument given by value dies with the unwinding callee *)
    destruct (in_use_fault c (fst (s i))) eqn:Hu; [discriminate|]. injection Hex as <-.
    apply in_use_not_dropped in Hu.
    cbn. rewrite Fi by assumption. destruct r; cbn.
    + exists nd. split; [reflexivity|]. apply rel_upd_keep; assumption.
    + destruct (v_idrop v); cbn.
      * rewrite Fi by assumption. eexists. split; [reflexivity|]. apply rel_upd_in; assumption.
      * exists nd. split; [reflexivity|]. apply rel_upd_keep; auto.
Qed.

(** Any action list that respects the memory discipline shows, to user code
    and destructors, no second drop and no use of a dropped value. *)
Theorem exec_implies_nodouble v : forall l s s' nd,
  exec l s = SOk s' -> rel s nd -> exists nd', ndl_exec (obs v l) nd = Some nd' /\ rel s' nd'.
Proof.
  induction l as [|a l IH]; intros s s' nd Hex Hrel; cbn in *.
  - inversion Hex; subst. exists nd. split; [reflexivity|exact Hrel].
  - destruct (exec_step s a) as [s1|f j] eqn:E; [|discriminate].
    destruct (step_nd v a s s1 nd E Hrel) as (nd1 & E1 & R1).
    destruct (IH s1 s' nd1 Hex R1) as (nd2 & E2 & R2).
    exists nd2. split; [|exact R2]. rewrite ndl_exec_app, E1. exact E2.
Qed.

Lemma rel_empty : rel empty_store (mkNDL (fun _ => false) (fun _ => false)).
Proof. intros j. cbn. split; discriminate. Qed.

Lemma exec_nodouble v l st : exec l empty_store = SOk st -> sb_nodouble_local (obs v l) = true.
Proof.
  intros H. destruct (exec_implies_nodouble v _ _ _ _ H rel_empty) as (nd' & E & _).
  exact (ndl_exec_run _ _ _ E).
Qed.

(** For every entry point, shape, sample size, counter set, every index [k] at
    which the benchmarked function ([PanicCall]) or the generator ([PanicGen])
    panics: what ran of the sample, the unwinding callee's disposal of an owned
    argument and the destructors unwinding runs in the loop (none: the store of
    slots holds [MaybeUninit] cells) never misuse a cell; the events seen by
    user code contain no second drop of a value and no use of a dropped value.
    Values may be leaked. *)
Theorem panic_safe e sh n cs u multi site k :
  (exists st, exec (cut_prog site k (sample_prog e sh n cs u)) empty_store = SOk st)
  /\ sb_nodouble_local (obs (vis_of e sh multi) (cut_prog site k (sample_prog e sh n cs u))) = true.
Proof.
  destruct (exec_sample_ok e sh n cs u) as (st & Hex & _).
  destruct (exec_cut_ok site k _ _ _ Hex) as (st' & Hcut).
  split; [exists st'; exact Hcut|exact (exec_nodouble _ _ _ Hcut)].
Qed.

Theorem nodouble_sample e sh n cs u multi :
  sb_nodouble_local (obs (vis_of e sh multi) (sample_prog e sh n cs u)) = true.
Proof.
  destruct (exec_sample_ok e sh n cs u) as (st & Hex & _). exact (exec_nodouble _ _ _ Hex).
Qed.

(** The cut really is the sample up to the panicking call: everything before
    the call with index [k], then the unwinding call.  Likewise for the generator. *)
Lemma cut_at_call_prefix k l1 r c l2 :
  Forall (fun a => match a with Call i _ _ => i <> k | _ => True end) l1 ->
  cut_at_call k (l1 ++ Call k r c :: l2) = l1 ++ [CallPanic k r c].
Proof.
  induction 1 as [|a l1 Ha Hl IH]; cbn.
  - rewrite Nat.eqb_refl. reflexivity.
  - destruct a; cbn; try (rewrite IH; reflexivity).
    destruct (Nat.eqb_spec i k); [contradiction|]. rewrite IH. reflexivity.
Qed.

Lemma cut_at_gen_prefix k l1 l2 :
  Forall (fun a => match a with Gen i => i <> k | _ => True end) l1 ->
  cut_at_gen k (l1 ++ Gen k :: l2) = l1 ++ [GenPanic k].
Proof.
  induction 1 as [|a l1 Ha Hl IH]; cbn.
  - rewrite Nat.eqb_refl. reflexivity.
  - destruct a; cbn; try (rewrite IH; reflexivity).
    destruct (Nat.eqb_spec i k); [contradiction|]. rewrite IH. reflexivity.
Qed.

Definition early (kg kc : nat) (a : action) : Prop :=
  match a with
  | Gen i => i < kg
  | Call i _ _ => i < kc
  | SyncStart | SyncEnd | GuardWait => False
  | _ => True
  end.

Lemma gen_phase_early p cs n kc : Forall (early n kc) (gen_phase p cs n).
Proof.
  eapply Forall_impl; [|apply gen_phase_acts]. intros [] [[= ] H]%in_loop_inv; cbn; auto.
Qed.

Lemma call_phase_early p r u k kg : Forall (early kg k) (call_phase p r u k).
Proof.
  eapply Forall_impl; [|apply call_phase_acts]. intros [] [[= ] H]%in_loop_inv; cbn; auto.
Qed.

Lemma early_no_guard kg kc l : Forall (early kg kc) l -> Forall (fun a => a <> GuardWait) l.
Proof. apply Forall_impl. intros [] H; try contradiction H; discriminate. Qed.

Lemma remaining_app l1 l2 rem :
  remaining_waits (l1 ++ l2) rem = remaining_waits l2 (remaining_waits l1 rem).
Proof.
  revert rem. induction l1 as [|a l1 IH]; intros rem; cbn; [reflexivity|].
  destruct a; apply IH.
Qed.

Lemma remaining_early kg kc l rem : Forall (early kg kc) l -> remaining_waits l rem = rem.
Proof.
  induction 1 as [|a l Ha Hl IH]; cbn; [reflexivity|]. destruct a; cbn in Ha; try contradiction; exact IH.
Qed.

Lemma sample_core_at_call p sh cs r u n k :
  k < n ->
  exists l2, sample_core p sh cs r u n =
             (gen_phase p cs n ++ [SyncStart; TsStart] ++ call_phase p r u k) ++ Call k r (in_cell p) :: l2.
Proof.
  intros Hk. unfold sample_core, call_phase. rewrite (seq_split3 n k Hk), flat_map_app.
  eexists. rewrite <- !app_assoc. reflexivity.
Qed.

Lemma sample_core_at_gen p sh cs r u n k :
  k < n -> exists l2, sample_core p sh cs r u n = gen_phase p cs k ++ Gen k :: l2.
Proof.
  intros Hk. unfold sample_core, gen_phase. rewrite (seq_split3 n k Hk), flat_map_app.
  eexists. rewrite <- !app_assoc. reflexivity.
Qed.

(** The benchmarked function panics at call [k < n]: the thread has waited
    twice (start synchronisation), so the guard waits exactly once more. *)
Theorem unwind_after_call_panic e sh n cs u k :
  k < n ->
  exists ran, cut_prog PanicCall k (sample_prog e sh n cs u) = ran ++ [GuardWait]
              /\ Forall (fun a => a <> GuardWait) ran.
Proof.
  intros Hk. unfold sample_prog.
  set (s := eff_shape e sh). set (p := path_of s). set (c := eff_counters e cs). set (r := by_ref e).
  destruct (sample_core_at_call p s c r u n k Hk) as (l2 & ->).
  pose proof (gen_phase_early p c n k) as Hg. pose proof (call_phase_early p r u k n) as Hc.
  unfold cut_prog, unwind_actions. rewrite cut_at_call_prefix.
  2:{ repeat (apply Forall_app; split); [revert Hg|repeat constructor|revert Hc];
      apply Forall_impl; intros []; cbn; lia. }
  eexists. split.
  - f_equal. rewrite !remaining_app, (remaining_early _ _ _ _ Hg). cbn [remaining_waits wait_count Nat.sub].
    rewrite (remaining_early _ _ _ _ Hc). reflexivity.
  - repeat (apply Forall_app; split); try (repeat constructor; discriminate).
    + exact (early_no_guard _ _ _ Hg).
    + exact (early_no_guard _ _ _ Hc).
Qed.

(** The generator panics at index [k < n]: the thread has not waited yet, the
    guard performs all three waits. *)
Theorem unwind_after_gen_panic e sh n cs u k :
  k < n ->
  exists ran, cut_prog PanicGen k (sample_prog e sh n cs u) = ran ++ [GuardWait; GuardWait; GuardWait]
              /\ Forall (fun a => a <> GuardWait) ran.
Proof.
  intros Hk. unfold sample_prog.
  set (s := eff_shape e sh). set (p := path_of s). set (c := eff_counters e cs).
  destruct (sample_core_at_gen p s c (by_ref e) u n k Hk) as (l2 & ->).
  pose proof (gen_phase_early p c k 0) as Hg.
  unfold cut_prog, unwind_actions. rewrite cut_at_gen_prefix.
  2:{ revert Hg. apply Forall_impl. intros []; cbn; lia. }
  eexists. split.
  - f_equal. rewrite remaining_app, (remaining_early _ _ _ _ Hg). reflexivity.
  - apply Forall_app. split; [exact (early_no_guard _ _ _ Hg)|repeat constructor; discriminate].
Qed.
