(** The boolean specifications of the C16 streams hold of the model: the
    comparator answers what the specified order says ([cmp] stream), and
    [sort_sb] characterises the output of the model ([sort] stream). *)

From Coq Require Import Permutation.
From DivanV Require Import Base.Res Model.Natural Model.SortBy Model.ArgCmp Proofs.SortCmp
  Proofs.ArgCmp Proofs.ListFacts.
Local Open Scope N_scope.

Lemma isort_ext {A} (c c' : A -> A -> comparison) :
  (forall x y, c x y = c' x y) -> forall l, isort c l = isort c' l.
Proof.
  intros E. induction l as [|x r IH]; simpl; [reflexivity|]. rewrite IH.
  generalize (isort c' r). intros l. induction l as [|y l IHl]; simpl; [reflexivity|].
  unfold leb_c. rewrite E. destruct (c' x y); try reflexivity. rewrite IHl. reflexivity.
Qed.

Lemma mem_N_In : forall x l, mem_N x l = true <-> In x l.
Proof.
  induction l as [|y r IH]; simpl; [split; [discriminate|tauto]|].
  rewrite Bool.orb_true_iff, N.eqb_eq, IH. split; intros [H|H]; auto.
Qed.

Lemma nodup_N_NoDup : forall l, nodup_N l = true <-> NoDup l.
Proof.
  induction l as [|x r IH]; simpl; [split; [constructor|reflexivity]|].
  rewrite Bool.andb_true_iff, Bool.negb_true_iff, IH. split.
  - intros [H1 H2]. constructor; [|exact H2]. intros Hin. apply mem_N_In in Hin. congruence.
  - intros H. inversion H as [|? ? Hn Hr]; subst. split; [|exact Hr].
    destruct (mem_N x r) eqn:E; [|reflexivity]. apply mem_N_In in E. contradiction.
Qed.

Lemma is_perm_of_range_iff {A} (l : list A) out :
  is_perm_of_range (N.of_nat (length l)) out = true <-> Permutation (map fst (indexed l)) out.
Proof.
  unfold is_perm_of_range, indexed. split.
  - intros H. apply Bool.andb_true_iff in H. destruct H as [H ND].
    apply Bool.andb_true_iff in H. destruct H as [HL HB].
    apply N.eqb_eq, Nat2N.inj in HL.
    apply Permutation_sym, NoDup_Permutation_bis; [apply nodup_N_NoDup; exact ND| |].
    + rewrite map_length, index_from_length. lia.
    + intros i Hi. apply index_from_fst_in.
      apply (proj1 (forallb_forall _ _) HB), N.ltb_lt in Hi. lia.
  - intros HP. apply Bool.andb_true_iff. split; [apply Bool.andb_true_iff; split|].
    + apply N.eqb_eq. rewrite <- (Permutation_length HP), map_length, index_from_length. reflexivity.
    + apply forallb_forall. intros i Hi.
      apply (Permutation_in _ (Permutation_sym HP)), in_map_iff in Hi.
      destruct Hi as (x & <- & Hx). apply index_from_fst in Hx. apply N.ltb_lt. lia.
    + apply nodup_N_NoDup, (Permutation_NoDup HP), NoDup_map_inj; [|apply index_from_nodup].
      intros x y. apply index_from_inj.
Qed.

Lemma all_before_ssorted {A} (Dm : A -> Prop) (c : A -> A -> comparison) (lt : A -> A -> bool) :
  (forall x y, Dm x -> Dm y -> (lt x y = true <-> c x y = Lt)) ->
  (forall x y, Dm x -> Dm y -> c x y = Eq -> x = y) ->
  forall l, Forall Dm l -> NoDup l -> (all_before lt l = true <-> ssorted c l).
Proof.
  intros Hlt Strict. induction l as [|x r IH]; intros Dl ND; simpl; [tauto|].
  inversion Dl as [|? ? Dx Dr]; inversion ND as [|? ? Hn NDr]; subst.
  pose proof (proj1 (Forall_forall _ _) Dr) as Dr'. split.
  - intros H. apply Bool.andb_true_iff in H. destruct H as [Hx Hr].
    split; [|apply (IH Dr NDr), Hr]. apply Forall_forall. intros y Hy.
    rewrite (proj1 (Hlt x y Dx (Dr' y Hy)) (proj1 (forallb_forall _ _) Hx y Hy)). discriminate.
  - intros [Hx Hr]. apply Bool.andb_true_iff. split; [|apply (IH Dr NDr), Hr].
    apply forallb_forall. intros y Hy. apply (Hlt x y Dx (Dr' y Hy)).
    pose proof (proj1 (Forall_forall _ _) Hx y Hy) as G. cbv beta in G.
    destruct (c x y) eqn:E; [|reflexivity|congruence].
    apply Strict in E; auto. subst y. contradiction.
Qed.

Section Sb.
Variable V : Type.
Variable vcmp : V -> V -> comparison.
Variable fparse : bytes -> option V.
Variable names : list bytes.
Hypothesis OK : oracle_ok_on V vcmp fparse (in_names names).

Notation arg_cmp := (arg_cmp V vcmp fparse).
Notation spec_arg_cmp := (spec_arg_cmp V vcmp fparse).
Notation spec_name_cmp := (spec_name_cmp V vcmp fparse).
Notation spec_before := (spec_before V vcmp fparse).
Notation D := (D names).

Lemma arg_cmp_spec : forall attr x y, D x -> D y -> arg_cmp attr x y = spec_arg_cmp attr x y.
Proof.
  intros attr x y Dx Dy.
  pose proof (name_cmp_spec V vcmp fparse (in_names names) OK (snd x) (snd y)
                (D_in_names names x Dx) (D_in_names names y Dy)) as E.
  destruct attr; unfold ArgCmp.arg_cmp, ArgCmp.spec_arg_cmp; simpl.
  - rewrite E. destruct (spec_name_cmp (snd x) (snd y)); try reflexivity.
    destruct (fst x ?= fst y); reflexivity.
  - rewrite E. destruct (spec_name_cmp (snd x) (snd y)); try reflexivity.
    destruct (fst x ?= fst y); reflexivity.
  - destruct (fst x ?= fst y) eqn:L; try reflexivity.
    apply N.compare_eq in L.
    assert (x = y) by (eapply index_from_inj; eauto). subst y.
    rewrite (tpo_refl _ _ (tpo_name_cmp V vcmp fparse (in_names names) OK) (snd x) (D_in_names names x Dx)).
    reflexivity.
Qed.

Lemma spec_before_iff : forall attr x y, spec_before attr x y = true <-> spec_arg_cmp attr x y = Lt.
Proof.
  intros attr x y. unfold ArgCmp.spec_before, ArgCmp.spec_arg_cmp, N.ltb.
  destruct attr; try destruct (spec_name_cmp (snd x) (snd y));
    try (destruct (fst x ?= fst y)); split; congruence.
Qed.

Definition elem_of (i : N) : N * bytes :=
  (i, match nth_opt names i with Some s => s | None => [] end).

Lemma elems_of_positions : forall l, Forall D l -> map elem_of (map fst l) = l.
Proof.
  intros l H. rewrite map_map. rewrite <- (map_id l) at 2. apply map_ext_in.
  intros x Hx. rewrite Forall_forall in H. specialize (H x Hx).
  pose proof (nth_opt_index_from names 0 x H) as E. rewrite N.sub_0_r in E.
  unfold elem_of. rewrite E. destruct x; reflexivity.
Qed.

Lemma positions_of_elems : forall l, map fst (map elem_of l) = l.
Proof. intros l. rewrite map_map. apply map_id. Qed.

Lemma sort_sb_iff : forall attr rev out,
  sort_sb V vcmp fparse attr rev names out = true <->
  (if rev then List.rev out else out) = map fst (isort (arg_cmp attr) (indexed names)).
Proof.
  intros attr rev out. unfold ArgCmp.sort_sb. cbv zeta. fold elem_of.
  set (asc := if rev then List.rev out else out).
  set (I := indexed names). pose proof (tpo_arg_cmp_D V vcmp fparse names OK attr) as T.
  assert (AB : forall l, Permutation I l ->
            (all_before (spec_before attr) l = true <-> ssorted (arg_cmp attr) l)).
  { intros l HP. apply (all_before_ssorted D).
    - intros x y Dx Dy. rewrite (arg_cmp_spec attr x y Dx Dy). apply spec_before_iff.
    - intros x y Dx Dy. apply (arg_cmp_strict V vcmp fparse names OK attr x y Dx Dy).
    - exact (Permutation_Forall HP (Forall_D_indexed names)).
    - exact (Permutation_NoDup HP (index_from_nodup names 0)). }
  split.
  - intros H. apply Bool.andb_true_iff in H. destruct H as [HP HB].
    apply is_perm_of_range_iff in HP. fold I in HP.
    assert (PE : Permutation I (map elem_of asc)).
    { rewrite <- (elems_of_positions I (Forall_D_indexed names)). apply Permutation_map.
      subst asc. destruct rev; [|exact HP]. exact (perm_trans HP (Permutation_rev out)). }
    apply AB in HB; [|exact PE].
    pose proof (sort_args_unique V vcmp fparse names OK attr false _ PE HB) as EQ.
    change (map elem_of asc = isort (arg_cmp attr) I) in EQ.
    rewrite <- EQ. symmetry. apply positions_of_elems.
  - intros E.
    assert (EE : map elem_of asc = isort (arg_cmp attr) I).
    { rewrite E. apply elems_of_positions, isort_Forall, Forall_D_indexed. }
    apply Bool.andb_true_iff. split.
    + apply is_perm_of_range_iff. fold I.
      assert (HP : Permutation (map fst I) asc) by (rewrite E; apply Permutation_map, isort_perm).
      subst asc. destruct rev; [|exact HP].
      exact (perm_trans HP (Permutation_sym (Permutation_rev out))).
    + rewrite EE. apply AB; [apply isort_perm|].
      apply (isort_sorted D _ T), Forall_D_indexed.
Qed.

(** Reading the output of the model in ascending direction ([--sortr] being
    exactly the reverse of [--sort]). *)
Lemma ascending_output : forall attr (rev : bool) out,
  (if rev then List.rev out else out) = map fst (isort (arg_cmp attr) (indexed names)) <->
  out = map fst (isort (revc rev (arg_cmp attr)) (indexed names)).
Proof.
  intros attr [|] out; [|reflexivity].
  rewrite (sort_args_reverse V vcmp fparse names OK attr), map_rev.
  change (isort (revc false (arg_cmp attr)) (indexed names)) with (isort (arg_cmp attr) (indexed names)).
  split; intros H; [rewrite <- H|rewrite H]; rewrite rev_involutive; reflexivity.
Qed.

(** The specification of the [sort] stream accepts exactly the model's output. *)
Theorem sort_sb_exact : forall attr rev out,
  sort_sb V vcmp fparse attr rev names out = true <->
  sort_args V vcmp fparse attr rev names = Ok out.
Proof.
  intros attr rev out. rewrite (sort_args_ok V vcmp fparse names OK attr rev). split.
  - intros H. apply sort_sb_iff, ascending_output in H. rewrite H. reflexivity.
  - intros [= <-]. apply sort_sb_iff, ascending_output. reflexivity.
Qed.

End Sb.

Lemma sort_sb_complete : forall V vcmp fparse names,
  oracle_ok_on V vcmp fparse (in_names names) -> forall attr rev out,
  sort_sb V vcmp fparse attr rev names out = true ->
  sort_args V vcmp fparse attr rev names = Ok out.
Proof.
  intros V vcmp fparse names OK attr rev out. apply (sort_sb_exact V vcmp fparse names OK).
Qed.

(** With the exact decimal oracle the hypotheses hold for all names: the
    extracted model satisfies the extracted specification on every input. *)
Lemma sort_args_dec_sb : forall attr rev names out,
  sort_args_dec attr rev names = Ok out -> sort_sb_dec attr rev names out = true.
Proof.
  intros attr rev names out. apply sort_sb_exact. apply oracle_dec_ok.
Qed.

Lemma sort_sb_dec_complete : forall attr rev names out,
  sort_sb_dec attr rev names out = true -> sort_args_dec attr rev names = Ok out.
Proof. intros attr rev names out. apply sort_sb_complete. apply oracle_dec_ok. Qed.

Lemma sort_args_dec_never_panics : forall attr rev names, exists out,
  sort_args_dec attr rev names = Ok out.
Proof.
  intros attr rev names. eexists. apply sort_args_ok. apply oracle_dec_ok.
Qed.

Lemma arg_cmp_dec_spec : forall names attr x y, D names x -> D names y ->
  arg_cmp_dec attr x y = spec_arg_cmp_dec attr x y.
Proof. intros names attr x y. apply arg_cmp_spec. apply oracle_dec_ok. Qed.
