(** [par_extend]'s result vector: the new length never exceeds the capacity, the
    old elements stay, the new suffix is the broadcast's result slots. *)

From DivanV Require Import Base.Res Model.Pool.
Import PoolM.

Lemma set_nth_app_here {A} (a : list A) x y b : set_nth (length a) x (a ++ y :: b) = a ++ x :: b.
Proof. induction a as [|h t IH]; cbn; auto. now rewrite IH. Qed.

Lemma write_from_app {A} (sl : list A) : forall a b,
  length b = length sl -> write_from (length a) sl (a ++ b) = a ++ sl.
Proof.
  induction sl as [|x rest IH]; intros a b H; destruct b as [|y b']; try discriminate; cbn.
  - reflexivity.
  - rewrite set_nth_app_here.
    replace (a ++ x :: b') with ((a ++ [x]) ++ b') by (rewrite <- app_assoc; reflexivity).
    replace (S (length a)) with (length (a ++ [x])) by (rewrite app_length; cbn; lia).
    rewrite IH by (cbn in H; lia). rewrite <- app_assoc. reflexivity.
Qed.

Theorem par_extend_vector v n sl :
  length sl = S n ->
  exists v', par_extend_vec v n sl = Ok v'
             /\ v_elems v' = v_elems v ++ sl
             /\ length (v_elems v') <= v_cap v'
             /\ v_cap v <= v_cap v'.
Proof.
  intros Hl. unfold par_extend_vec, par_extend_prepare, reserve_exact.
  set (len := length (v_elems v)) in *. rewrite Nat.add_1_r.
  assert (E : Nat.leb (len + S n) (if Nat.leb (S n) (v_cap v - len) then v_cap v else len + S n) = true).
  { destruct (Nat.leb (S n) (v_cap v - len)) eqn:L; apply Nat.leb_le; [apply Nat.leb_le in L|]; lia. }
  rewrite E. eexists. split; [reflexivity|]. cbn [v_elems v_cap].
  unfold len. rewrite write_from_app by (rewrite repeat_length; lia).
  split; [reflexivity|]. rewrite app_length, Hl. fold len.
  destruct (Nat.leb (S n) (v_cap v - len)) eqn:L; [apply Nat.leb_le in L|apply Nat.leb_gt in L]; lia.
Qed.

(** The precondition of [set_len] is the only panic site, and it needs the
    spare room that [reserve_exact] is asked for: with a request that is too
    small (here: the seeded "only what is missing of the missing") the model
    panics.  [req] computes what line 61 asks [reserve_exact] for. *)
Definition prepare_with (req : nat -> nat -> nat -> nat) (v : vecst) (n : nat) : res vecst :=
  let old_len := length (v_elems v) in
  let additional := n + 1 in
  let cap' := reserve_exact old_len (v_cap v) (req old_len (v_cap v) additional) in
  if Nat.leb (old_len + additional) cap'
  then Ok {| v_elems := v_elems v ++ repeat None additional; v_cap := cap' |}
  else Panic Other.

Example prepare_code_shape v n : prepare_with (fun _ _ a => a) v n = par_extend_prepare v n.
Proof. reflexivity. Qed.

Example prepare_refuted_when_request_shrinks :
  prepare_with (fun len cap a => a - (cap - len)) {| v_elems := []; v_cap := 2 |} 4 = Panic Other.
Proof. reflexivity. Qed.
