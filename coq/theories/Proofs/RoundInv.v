(** C08: the inductive invariant relating every thread's
    program position and guard counter to the barrier generation, for any number
    of threads; phase order and deadlock freedom follow from it. *)
From Coq Require Import List Arith Bool Lia.
From DivanV Require Import Model.Round Proofs.RoundBase.
Import ListNotations.

Lemma wb_spec : forall n p,
  (p <= n /\ wb n p = 0) \/ (n < p <= n + 2 /\ wb n p = 1) \/
  (n + 2 < p <= 2 * n + 5 /\ wb n p = 2) \/ (2 * n + 5 < p /\ wb n p = 3).
Proof.
  intros n p. unfold wb.
  destruct (Nat.ltb_spec n p), (Nat.ltb_spec (n + 2) p), (Nat.ltb_spec (2 * n + 5) p); cbn [b2n]; lia.
Qed.

Lemma b2n_ltb_S : forall a p, b2n (a <? S p) = b2n (p =? a) + b2n (a <? p).
Proof.
  intros a p. destruct (Nat.ltb_spec a (S p)), (Nat.eqb_spec p a), (Nat.ltb_spec a p); cbn [b2n]; lia.
Qed.

Lemma wb_S : forall n p, wb n (S p) = b2n (iswait n p) + wb n p.
Proof.
  intros n p. unfold wb, iswait. rewrite !b2n_ltb_S.
  destruct (Nat.eqb_spec p n), (Nat.eqb_spec p (n + 2)), (Nat.eqb_spec p (2 * n + 5)); cbn [orb b2n]; lia.
Qed.

Lemma wb_S_wait : forall n p, iswait n p = true -> wb n (S p) = S (wb n p).
Proof. intros n p W. rewrite wb_S, W. reflexivity. Qed.

Lemma wb_S_nowait : forall n p, iswait n p = false -> wb n (S p) = wb n p.
Proof. intros n p W. rewrite wb_S, W. reflexivity. Qed.

Lemma wb_wait_le2 : forall n p, iswait n p = true -> wb n p <= 2.
Proof. intros n p W. apply iswait_iff in W. pose proof (wb_spec n p). lia. Qed.

Lemma wb_end : forall n sh p, plen n sh <= p -> wb n p = 3.
Proof. intros n sh p PL. unfold plen in PL. pose proof (wb_spec n p). lia. Qed.

Lemma userpos_nowait : forall n sh p, userpos n sh p = true -> iswait n p = false.
Proof. intros n sh p U. apply userpos_iff in U. apply not_true_iff_false. rewrite iswait_iff. lia. Qed.

Lemma userpos_lt : forall n sh p, userpos n sh p = true -> p < plen n sh.
Proof. intros n sh p U. apply userpos_iff in U. unfold plen in *. lia. Qed.

(** [g] is the barrier generation: the number of waits every thread is through.
    A thread outside a wait has passed exactly [g] waits of its program; inside a
    wait it arrived in generation [a] and the barrier is at [a] (blocked) or [S a]
    (released, not yet resumed).  [remaining] plus the waits made is 3 throughout,
    so the guard of a panicking thread makes exactly the waits the others expect. *)
Definition thread_ok (n : nat) (sh : shape) (g : nat) (th : thread) : Prop :=
  match md th, blk th with
  | Run, None => remaining th + wb n (pc th) = 3 /\ g = wb n (pc th)
  | Run, Some a => iswait n (pc th) = true /\ a = wb n (pc th) /\ remaining th + a + 1 = 3 /\ (a = g \/ S a = g)
  | Unwind, None => remaining th + g = 3 /\ wb n (pc th) <= g /\ userpos n sh (pc th) = true
  | Unwind, Some a => remaining th + a + 1 = 3 /\ (a = g \/ S a = g) /\ wb n (pc th) <= a /\ userpos n sh (pc th) = true
  | Returned, None => remaining th = 0 /\ g = 3 /\ plen n sh <= pc th
  | Unwound, None => remaining th = 0 /\ g = 3 /\ userpos n sh (pc th) = true
  | _, Some _ => False
  end.

Definition Inv (c : config) (st : state) : Prop :=
  length (ths st) = nthreads c /\
  (gp st = GRun ->
   bcount (bar st) < nthreads c /\
   bcount (bar st) = countb (blocked_on (bgen (bar st))) (ths st) /\
   forall th, In th (ths st) -> thread_ok (ssize c (round st)) (shp c) (bgen (bar st)) th).

(** The executable invariant checked by the explorer is this invariant. *)
Lemma thread_ok_b_iff : forall n sh g th, thread_ok_b n sh g th = true <-> thread_ok n sh g th.
Proof.
  intros. unfold thread_ok_b, thread_ok.
  destruct (md th), (blk th);
    rewrite ?andb_true_iff, ?orb_true_iff, ?Nat.eqb_eq, ?Nat.leb_le; try tauto;
    try (split; [discriminate|contradiction]).
Qed.

Lemma inv_b_iff : forall c st, inv_b c st = true <-> Inv c st.
Proof.
  intros c st. unfold inv_b, Inv. rewrite andb_true_iff, Nat.eqb_eq.
  destruct (gp st) eqn:G.
  - split; [intros [H _]|intros [H _]]; split; auto; intros; discriminate.
  - rewrite !andb_true_iff, Nat.ltb_lt, Nat.eqb_eq, forallb_forall.
    split.
    + intros (H & (A & B) & C). split; auto. intros _. repeat split; auto.
      intros th X. apply thread_ok_b_iff. auto.
    + intros (H & K). destruct (K eq_refl) as (A & B & C). repeat split; auto.
      intros th X. apply thread_ok_b_iff. auto.
  - split; [intros [H _]|intros [H _]]; split; auto; intros; discriminate.
Qed.

Lemma inv_init : forall c, Inv c (init c).
Proof.
  intros c. split; cbn.
  - apply repeat_length.
  - discriminate.
Qed.

Lemma blocked_at_wait : forall n sh g th a,
  thread_ok n sh g th -> md th = Run -> blk th = Some a -> iswait n (pc th) = true.
Proof. intros n sh g th a OK M BL. unfold thread_ok in OK. rewrite M, BL in OK. apply OK. Qed.

Lemma returned_at_end : forall n sh g th,
  thread_ok n sh g th -> md th = Returned -> plen n sh <= pc th.
Proof.
  intros n sh g th OK M. unfold thread_ok in OK. rewrite M in OK.
  destruct (blk th); [contradiction|apply OK].
Qed.

Lemma blocked_on_some : forall g th, blocked_on g th = true -> blk th = Some g.
Proof.
  unfold blocked_on. intros g th H. destruct (blk th) as [a|]; [|discriminate].
  apply Nat.eqb_eq in H. congruence.
Qed.

Lemma blocked_on_none : forall g th, blk th = None -> blocked_on g th = false.
Proof. intros g th B. unfold blocked_on. rewrite B. reflexivity. Qed.

Lemma blocked_on_other : forall g a th, blk th = Some a -> a <> g -> blocked_on g th = false.
Proof. intros g a th B NE. unfold blocked_on. rewrite B. apply Nat.eqb_neq, NE. Qed.

Lemma thread_ok_released : forall n sh g th,
  blk th = Some g -> thread_ok n sh g th -> thread_ok n sh (S g) th.
Proof.
  intros n sh g th B OK. unfold thread_ok in *. rewrite B in *.
  destruct (md th); try contradiction; intuition lia.
Qed.

(** A thread that is not blocked in the current generation steps and the
    generation stays; [blocks]: the step is an arrival that blocks. *)
Lemma inv_upd_same : forall c st i th th' b' blocks,
  Inv c st -> gp st = GRun -> nth_error (ths st) i = Some th ->
  blocked_on (bgen (bar st)) th = false -> blocked_on (bgen (bar st)) th' = blocks ->
  bgen b' = bgen (bar st) -> bcount b' = b2n blocks + bcount (bar st) -> bcount b' < nthreads c ->
  thread_ok (ssize c (round st)) (shp c) (bgen (bar st)) th' ->
  Inv c {| gp := GRun; round := round st; bar := b'; ths := upd i th' (ths st) |}.
Proof.
  intros c st i th th' b' blocks [L K] G N BT BT' GE CN LT OK. destruct (K G) as (_ & B & C).
  rewrite <- BT' in CN.
  split; cbn [ths gp round bar].
  - rewrite upd_length. exact L.
  - intros _. rewrite GE. repeat split.
    + exact LT.
    + pose proof (countb_upd _ (blocked_on (bgen (bar st))) i th' th (ths st) N) as U. rewrite BT in U. cbn [b2n] in U. lia.
    + intros x HI. destruct (In_nth_error _ _ HI) as [j Hj].
      destruct (nth_error_upd_inv _ _ _ _ _ _ Hj) as [[_ ->]|[_ Hj']]; auto.
      apply C. eapply nth_error_In; eauto.
Qed.

(** The releasing arrival: everybody else is blocked in the generation that ends. *)
Lemma inv_upd_rel : forall c st i th th',
  Inv c st -> gp st = GRun -> nth_error (ths st) i = Some th ->
  blk th = None -> blk th' = None ->
  nthreads c <= S (bcount (bar st)) ->
  thread_ok (ssize c (round st)) (shp c) (S (bgen (bar st))) th' ->
  Inv c {| gp := GRun; round := round st; bar := {| bcount := 0; bgen := S (bgen (bar st)) |}; ths := upd i th' (ths st) |}.
Proof.
  intros c st i th th' [L K] G N BN BN' NL OK. destruct (K G) as (A & B & C).
  assert (forall j y, j <> i -> nth_error (ths st) j = Some y -> blocked_on (bgen (bar st)) y = true) as OTH.
  { apply (countb_others _ (blocked_on (bgen (bar st))) (ths st) i th); auto.
    - apply blocked_on_none, BN.
    - lia. }
  split; cbn [ths gp round bar bcount bgen].
  - rewrite upd_length. exact L.
  - intros _. repeat split.
    + lia.
    + symmetry. apply countb_zero. intros x HI.
      destruct (In_nth_error _ _ HI) as [j Hj].
      destruct (nth_error_upd_inv _ _ _ _ _ _ Hj) as [[_ ->]|[NE Hj']].
      * apply blocked_on_none, BN'.
      * specialize (OTH j x NE Hj'). apply blocked_on_some in OTH.
        unfold blocked_on. rewrite OTH. apply Nat.eqb_neq. lia.
    + intros x HI. destruct (In_nth_error _ _ HI) as [j Hj].
      destruct (nth_error_upd_inv _ _ _ _ _ _ Hj) as [[_ ->]|[NE Hj']]; auto.
      apply thread_ok_released; [|apply C; eapply nth_error_In; eauto].
      apply blocked_on_some. apply (OTH j x NE Hj').
Qed.

Lemma thread_ok_tcase : forall c r i th b th' b',
  guard c = true -> tcase c r i th b th' b' ->
  thread_ok (ssize c r) (shp c) (bgen b) th -> thread_ok (ssize c r) (shp c) (bgen b') th'.
Proof.
  intros c r i th b th' b' GD TC OK. unfold thread_ok in *.
  destruct TC;
    rewrite M, BL in OK; rewrite ?GD;
    cbn [pc md blk remaining next_pc set_blk set_md set_rem bgen];
    rewrite ?exec_pc, ?exec_md, ?exec_blk, ?exec_remaining, ?M, ?BL.
  - rewrite (wb_S_wait _ _ (proj1 OK)). lia.
  - intuition lia.
  - pose proof (wb_end _ _ _ PL). lia.
  - rewrite (wb_S_wait _ _ W). pose proof (wb_wait_le2 _ _ W). lia.
  - pose proof (wb_wait_le2 _ _ W). intuition lia.
  - intuition lia.
  - rewrite (wb_S_nowait _ _ W). exact OK.
  - intuition lia.
  - intuition lia.
  - intuition lia.
Qed.

Lemma inv_step : forall c st l st',
  1 <= nthreads c -> fixed_code c -> Inv c st -> step c st l = Some st' -> Inv c st'.
Proof.
  intros c st l st' T1 GD I S. apply (step_cases _ _ _ _ (proj2 GD)) in S.
  destruct S.
  - destruct I as [L _]. split; cbn [ths gp round bar bcount bgen].
    + rewrite map_length. exact L.
    + intros _. repeat split.
      * lia.
      * symmetry. apply countb_zero. intros x HI. apply in_map_iff in HI. destruct HI as (y & <- & _). reflexivity.
      * intros x HI. apply in_map_iff in HI. destruct HI as (y & <- & _).
        unfold thread_ok, fresh; cbn [md blk pc remaining]. pose proof (wb_spec (ssize c (round st)) 0). lia.
  - destruct I as [L _]. split; cbn; auto. discriminate.
  - destruct I as [L _]. split; cbn; auto. discriminate.
  - destruct I as [L _]. split; cbn; auto. discriminate.
  - (* thread step: a releasing arrival starts a generation, every other step keeps it *)
    pose proof I as [L K]. destruct (K G) as (A & B & C).
    pose proof (thread_ok_tcase _ _ _ _ _ _ _ (proj1 GD) TC (C th (nth_error_In _ _ N))) as OK.
    pose proof (fun x y blocks => inv_upd_same c st i th x y blocks I G N) as SAME.
    destruct TC.
    + apply (SAME _ _ false (blocked_on_other _ _ _ BL NE)); auto.
    + apply (SAME _ _ false (blocked_on_other _ _ _ BL NE)); auto.
    + apply (SAME _ _ false (blocked_on_none _ _ BL)); auto using blocked_on_none.
    + eapply inv_upd_rel; eauto.
    + apply (SAME _ _ true (blocked_on_none _ _ BL)); auto. apply Nat.eqb_refl.
    + apply (SAME _ _ false (blocked_on_none _ _ BL)); auto using blocked_on_none.
    + apply (SAME _ _ false (blocked_on_none _ _ BL)); auto. apply blocked_on_none. rewrite exec_blk. exact BL.
    + apply (SAME _ _ false (blocked_on_none _ _ BL)); auto using blocked_on_none.
    + eapply inv_upd_rel; eauto.
    + apply (SAME _ _ true (blocked_on_none _ _ BL)); auto. apply Nat.eqb_refl.
Qed.

Lemma inv_reachable : forall c st,
  1 <= nthreads c -> fixed_code c -> reachable c st -> Inv c st.
Proof.
  intros c st T1 GD. apply (reachable_inv c (Inv c)); [apply inv_init|].
  intros. eapply inv_step; eauto.
Qed.

Lemma invariant_reachable : forall c st,
  1 <= nthreads c -> fixed_code c -> reachable c st -> inv_b c st = true.
Proof. intros c st T G R. apply inv_b_iff. apply inv_reachable; assumption. Qed.

Lemma gen_ge_wb : forall n sh g th, thread_ok n sh g th -> wb n (pc th) <= g.
Proof.
  intros n sh g th H. unfold thread_ok in H.
  destruct (md th), (blk th); try contradiction; try (intuition lia);
    pose proof (wb_spec n (pc th)); lia.
Qed.

(** A thread that has not panicked is at most one wait behind the generation,
    and only while it sits in that wait. *)
Lemma live_thread_pos : forall n sh g th,
  thread_ok n sh g th -> panicked th = false ->
  (2 <= g -> n + 2 <= pc th) /\ (3 <= g -> 2 * n + 5 <= pc th).
Proof.
  intros n sh g th H P. pose proof (wb_spec n (pc th)). unfold thread_ok, panicked in *.
  destruct (md th); try discriminate; destruct (blk th); try contradiction.
  - destruct H as (W & E & R & D). apply iswait_iff in W. lia.
  - lia.
  - unfold plen in H. lia.
Qed.

(** Unless the generation is 2 (between the second and the third wait), no live
    thread is between its two timestamps. *)
Lemma live_not_timed : forall n sh g th,
  thread_ok n sh g th -> panicked th = false -> g <> 2 -> ~ (n + 3 < pc th <= 2 * n + 4).
Proof.
  intros n sh g th H P G2 [A B]. pose proof (gen_ge_wb _ _ _ _ H). pose proof (wb_spec n (pc th)).
  destruct (live_thread_pos _ _ _ _ H P) as [_ X3]. lia.
Qed.

(** Prop-level statement of C08's order of phases.  Positions of round r
    (sample size n): generator calls 0..n-1, clear n+1, start timestamp n+3,
    end timestamp 2n+4, last wait 2n+5, snapshot 2n+6, drops from 2n+7. *)
Definition phase_order (c : config) (st : state) : Prop :=
  gp st = GRun ->
  let n := ssize c (round st) in
  forall ti tj, In ti (ths st) -> In tj (ths st) ->
    (* ti took its start timestamp: tj has generated all its inputs and cleared its tally, unless it panicked *)
    (n + 3 < pc ti -> n + 1 < pc tj \/ panicked tj = true) /\
    (* ti is past the last wait (before its snapshot and any drop): tj took its end timestamp, unless it panicked *)
    (2 * n + 5 < pc ti -> 2 * n + 4 < pc tj \/ panicked tj = true).

Lemma inv_phase_order : forall c st, Inv c st -> phase_order c st.
Proof.
  intros c st [_ K] G n ti tj Hi Hj. subst n. destruct (K G) as (_ & _ & C).
  pose proof (gen_ge_wb _ _ _ _ (C ti Hi)). pose proof (wb_spec (ssize c (round st)) (pc ti)).
  destruct (panicked tj) eqn:PJ; [auto|].
  destruct (live_thread_pos _ _ _ _ (C tj Hj) PJ). split; intros; left; lia.
Qed.

Lemma phase_sb_iff : forall c st, phase_sb c st = true <-> phase_order c st.
Proof.
  assert (forall n ti tj,
    implb (executed (n + 3) ti) (executed (n + 1) tj || panicked tj) &&
    implb (executed (2 * n + 5) ti) (executed (2 * n + 4) tj || panicked tj) = true <->
    (n + 3 < pc ti -> n + 1 < pc tj \/ panicked tj = true) /\
    (2 * n + 5 < pc ti -> 2 * n + 4 < pc tj \/ panicked tj = true)) as PAIR.
  { intros. unfold executed. rewrite andb_true_iff, !implb_true_iff, !orb_true_iff, !Nat.ltb_lt. reflexivity. }
  intros c st. unfold phase_sb, phase_order. destruct (gp st).
  - split; auto. intros; discriminate.
  - rewrite forallb_forall. split.
    + intros H _ ti tj Hi Hj. specialize (H ti Hi). rewrite forallb_forall in H. apply PAIR, H, Hj.
    + intros H ti Hi. apply forallb_forall. intros tj Hj. apply PAIR, H; auto.
  - split; auto. intros; discriminate.
Qed.

Theorem phase_order_reachable : forall c st,
  2 <= nthreads c -> fixed_code c -> reachable c st -> phase_order c st /\ phase_sb c st = true.
Proof.
  intros c st T2 GD R. assert (phase_order c st) as P.
  { apply inv_phase_order. apply inv_reachable; auto. lia. }
  split; auto. apply phase_sb_iff. exact P.
Qed.

(** While a live thread is strictly inside its timed section (it took the
    start timestamp and not yet the end timestamp), every other live thread is
    between its second and its third wait: leaving the second wait, taking a
    timestamp, running the benchmarked function or sitting in the third wait -
    never in a generator call, a clear, a snapshot or a drop. *)
Lemma no_overlap : forall c st,
  Inv c st -> gp st = GRun ->
  let n := ssize c (round st) in
  forall ti tj, In ti (ths st) -> In tj (ths st) ->
    panicked ti = false -> n + 3 < pc ti <= 2 * n + 4 ->
    panicked tj = false -> n + 2 <= pc tj <= 2 * n + 5.
Proof.
  intros c st [_ K] G n ti tj Hi Hj Pi Ri Pj. subst n. destruct (K G) as (_ & _ & C).
  pose proof (C tj Hj) as OJ.
  (* the generation is 2, which pins tj between the second and the third wait *)
  destruct (Nat.eq_dec (bgen (bar st)) 2) as [G2|NE]; [|destruct (live_not_timed _ _ _ _ (C ti Hi) Pi NE Ri)].
  rewrite G2 in OJ. pose proof (gen_ge_wb _ _ _ _ OJ). pose proof (wb_spec (ssize c (round st)) (pc tj)).
  destruct (live_thread_pos _ _ _ _ OJ Pj). lia.
Qed.

Lemma no_overlap_reachable : forall c st,
  2 <= nthreads c -> fixed_code c -> reachable c st -> gp st = GRun ->
  let n := ssize c (round st) in
  forall ti tj, In ti (ths st) -> In tj (ths st) ->
    panicked ti = false -> n + 3 < pc ti <= 2 * n + 4 ->
    panicked tj = false -> n + 2 <= pc tj <= 2 * n + 5.
Proof. intros c st T G R. apply no_overlap. apply inv_reachable; auto. lia. Qed.

Definition enabled_b (g : nat) (th : thread) : bool :=
  match md th, blk th with
  | (Run | Unwind), None => true
  | (Run | Unwind), Some a => negb (a =? g)
  | _, _ => false
  end.

Lemma enabled_tstep : forall c r i th b, enabled_b (bgen b) th = true -> tstep c r i th b <> None.
Proof.
  intros c r i th b H. unfold enabled_b, tstep in *.
  destruct (md th), (blk th) as [a|]; try discriminate.
  - destruct (a =? bgen b); discriminate.
  - destruct (nth_error _ _) as [x|]; [|discriminate].
    destruct x; try (destruct (_ && _); discriminate).
    destruct (arrive _ _) as [b' [|]]; discriminate.
  - destruct (a =? bgen b); discriminate.
  - destruct (remaining th); [discriminate|]. destruct (arrive _ _) as [b' [|]]; discriminate.
Qed.

(** A thread that cannot move has finished, which takes all three generations,
    or sits in a wait of the current one, which is then not the last. *)
Lemma stuck_thread : forall n sh g th,
  thread_ok n sh g th -> enabled_b g th = false ->
  (finished th = true /\ g = 3) \/ (blocked_on g th = true /\ g <= 2).
Proof.
  intros n sh g th OK E. unfold thread_ok, enabled_b, finished, blocked_on in *.
  destruct (md th), (blk th) as [a|]; try discriminate; try contradiction;
    try (left; split; [reflexivity|lia]);
    apply negb_false_iff in E; right; (split; [exact E|apply Nat.eqb_eq in E; lia]).
Qed.

Theorem deadlock_free : forall c st,
  Inv c st -> final st = false -> exists l st', step c st l = Some st'.
Proof.
  intros c st [L K] NF. unfold final in NF. destruct (gp st) eqn:G; [| |discriminate].
  - exists LStart. unfold step. rewrite G. destruct (round st <? nrounds c); eauto.
  - destruct (K eq_refl) as (A & B & C).
    destruct (forallb finished (ths st)) eqn:F.
    { exists LJoin. unfold step. rewrite G, F. destruct (find_idx _ _); eauto. }
    destruct (existsb (enabled_b (bgen (bar st))) (ths st)) eqn:E.
    { apply existsb_exists in E. destruct E as (th & HI & EN).
      destruct (In_nth_error _ _ HI) as [i Hi]. exists (LThread i).
      unfold step. rewrite G, Hi.
      pose proof (enabled_tstep c (round st) i th (bar st) EN) as X.
      destruct (tstep c (round st) i th (bar st)) as [[th' b']|]; [eauto|congruence]. }
    exfalso.
    assert (forall th, In th (ths st) ->
              (finished th = true /\ bgen (bar st) = 3) \/
              (blocked_on (bgen (bar st)) th = true /\ bgen (bar st) <= 2)) as ALL.
    { intros th HI. apply (stuck_thread _ _ _ _ (C th HI)).
      destruct (enabled_b (bgen (bar st)) th) eqn:Y; auto.
      rewrite <- E. symmetry. apply existsb_exists; eauto. }
    destruct (le_gt_dec (bgen (bar st)) 2).
    + (* every thread is blocked in the current generation: the count would be T *)
      assert (countb (blocked_on (bgen (bar st))) (ths st) = length (ths st)); [|lia].
      apply countb_all. intros th HI. destruct (ALL th HI) as [[_ ?]|[? _]]; [lia|auto].
    + (* every thread has finished *)
      assert (forallb finished (ths st) = true); [|congruence].
      apply forallb_forall. intros th HI. destruct (ALL th HI) as [[? _]|[_ ?]]; [auto|lia].
Qed.

Lemma deadlock_free_reachable : forall c st,
  1 <= nthreads c -> fixed_code c -> reachable c st -> final st = false ->
  exists l st', step c st l = Some st'.
Proof. intros c st T G R. apply deadlock_free. apply inv_reachable; assumption. Qed.
