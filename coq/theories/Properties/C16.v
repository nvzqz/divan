(** C16 — Output order is the documented total order for each --sort attribute.
    Statements only; each closed by [exact] of a lemma in Proofs/. *)
From Coq Require Import Permutation QArith.
From DivanV Require Import Base.Res Generated.Consts Model.Natural Model.SortBy Model.ArgCmp Model.TreeCmp
  Proofs.SortCmp Proofs.SortUniq Proofs.Natural Proofs.ArgCmp Proofs.ArgSb
  Proofs.TreeCmp Proofs.TreeSort Proofs.TreeSorted.
Local Open Scope N_scope.

(** Obligation on the generated constant: the tie-breaker table of
    [SortingAttr::with_tie_breakers] is the documented one. *)
Theorem C16_tie_breakers_const :
  with_tie_breakers SKind = [SKind; SName; SLocation] /\
  with_tie_breakers SName = [SName; SLocation; SKind] /\
  with_tie_breakers SLocation = [SLocation; SKind; SName].
Proof. exact tie_breakers_table. Qed.

(** [natural_cmp] is a total preorder on all byte strings: reflexive,
    antisymmetric in the [CompOpp] sense (so total), transitive, and [Equal] is a
    congruence. *)
Theorem C16_natural_total_preorder :
  (forall a, natural_cmp a a = Eq) /\
  (forall a b, natural_cmp b a = CompOpp (natural_cmp a b)) /\
  (forall a b c, natural_cmp a b <> Gt -> natural_cmp b c <> Gt -> natural_cmp a c <> Gt) /\
  (forall a b c, natural_cmp a b = Lt -> natural_cmp b c = Lt -> natural_cmp a c = Lt) /\
  (forall a b c, natural_cmp a b = Eq -> natural_cmp a c = natural_cmp b c).
Proof. exact natural_total_preorder. Qed.
Print Assumptions C16_natural_total_preorder.

(** It is a preorder, not an order: two names are tied exactly when their
    sequences of token keys coincide (same text outside digit runs, digit runs
    of equal value: "a01" ~ "a1"). *)
Theorem C16_natural_ties : forall a b, natural_cmp a b = Eq <-> nat_key a = nat_key b.
Proof. exact natural_cmp_eq_iff. Qed.
Print Assumptions C16_natural_ties.

(** Digit runs of any length compare by numeric value, leading zeros ignored. *)
Theorem C16_cmp_int_value : forall a b, all_digits a = true -> all_digits b = true ->
  cmp_int a b = (digits_val a ?= digits_val b).
Proof. exact cmp_int_val. Qed.
Print Assumptions C16_cmp_int_value.

(** After a common prefix that does not end in a digit, two maximal digit runs
    decide by value; when the values are equal ("01" against "1") neither name
    is smaller because of the zeros: the comparison continues behind the runs. *)
Theorem C16_natural_numeric : forall p d1 d2 s1 s2,
  last_kind p <> Some true ->
  d1 <> [] -> d2 <> [] -> all_digits d1 = true -> all_digits d2 = true ->
  first_kind s1 <> Some true -> first_kind s2 <> Some true ->
  natural_cmp (p ++ d1 ++ s1) (p ++ d2 ++ s2) =
  match digits_val d1 ?= digits_val d2 with
  | Eq => natural_cmp s1 s2
  | o => o
  end.
Proof. exact natural_numeric. Qed.
Print Assumptions C16_natural_numeric.

(** The tokens, concatenated, are the input. *)
Theorem C16_tokens_partition : forall s, concat (map snd (tokenize s)) = s.
Proof. exact tokenize_concat. Qed.
Print Assumptions C16_tokens_partition.

(** For ALL lists of names (all strings, mixed classes) and every float oracle
    that is monotone on the integer names of the list (no exactness: rounding
    may merge neighbouring integers) and does not round a non-zero integer to
    zero — which a correctly rounding [str::parse::<f64>] does for every name:
    the comparator, on the
    arguments (position, name) of the list, is a total preorder, and only an
    argument itself is [Equal] to it — a strict total order, which is what
    std's sorts need not to panic. *)
Theorem C16_argcmp_strict_total : forall V vcmp fparse names attr,
  oracle_ok_on V vcmp fparse (in_names names) ->
  let c := arg_cmp V vcmp fparse attr in
  let D := D names in
  (forall x y, D x -> D y -> c y x = CompOpp (c x y)) /\
  (forall x y z, D x -> D y -> D z -> c x y = Lt -> c y z = Lt -> c x z = Lt) /\
  (forall x y z, D x -> D y -> D z -> c x y = Eq -> c x z = c y z) /\
  (forall x y, D x -> D y -> (c x y = Eq <-> x = y)).
Proof. exact argcmp_strict_total. Qed.
Print Assumptions C16_argcmp_strict_total.

(** The hypothesis is satisfiable, for every set of names, by the exact decimal
    oracle (Rust's float grammar with the exact value of the literal), and on
    the names 2^53, 2^53+1, "9007199254740992.0" by an oracle that rounds them
    to one value like f64. *)
Theorem C16_oracle_dec_ok : forall P, oracle_ok_on fval fval_cmp dec_parse P.
Proof. exact oracle_dec_ok. Qed.
Print Assumptions C16_oracle_dec_ok.

Theorem C16_oracle_rounding_ok :
  oracle_ok_on Z Z.compare rounding_oracle (fun s => In s [n_2p53; n_2p53_1; n_2p53_dot0]).
Proof. exact rounding_oracle_ok. Qed.
Print Assumptions C16_oracle_rounding_ok.

(** About the comparator before commit 6cb0c72 (float-[Equal] names tied): with
    the rounding oracle it was not a preorder on these three names (the real
    crate panicked in sort_by on 21 of them); the current one orders them. *)
Theorem C16_argcmp_rounding_refuted :
  old_name_cmp Z.compare rounding_oracle n_2p53 n_2p53_1 = Lt /\
  old_name_cmp Z.compare rounding_oracle n_2p53 n_2p53_dot0 = Eq /\
  old_name_cmp Z.compare rounding_oracle n_2p53_1 n_2p53_dot0 = Eq.
Proof. exact rounding_oracle_broke_old_comparator. Qed.
Print Assumptions C16_argcmp_rounding_refuted.

Theorem C16_argcmp_rounding_now_ordered :
  name_cmp Z Z.compare rounding_oracle n_2p53 n_2p53_1 = Lt /\
  name_cmp Z Z.compare rounding_oracle n_2p53 n_2p53_dot0 = Lt /\
  name_cmp Z Z.compare rounding_oracle n_2p53_1 n_2p53_dot0 = Lt.
Proof. exact rounding_oracle_new_comparator. Qed.
Print Assumptions C16_argcmp_rounding_now_ordered.

(** Two numeric names compare by value (negatives, decimals, exponents,
    infinities included); at equal float value integers come first (two
    integers by their exact value) and other spellings tie; a number is before
    every other name; two other names compare naturally. *)
Theorem C16_argcmp_numeric : forall V vcmp fparse (P : bytes -> Prop),
  oracle_ok_on V vcmp fparse P ->
  forall a b, P a -> P b ->
  (forall x y, fparse a = Some x -> fparse b = Some y ->
     name_cmp V vcmp fparse a b =
     match vcmp x y with
     | Eq => match int_val a, int_val b with
             | Some p, Some q => (p ?= q)%Z
             | Some _, None => Lt
             | None, Some _ => Gt
             | None, None => Eq
             end
     | o => o
     end) /\
  (forall x, fparse a = Some x -> fparse b = None ->
     name_cmp V vcmp fparse a b = Lt /\ name_cmp V vcmp fparse b a = Gt) /\
  (fparse a = None -> fparse b = None ->
     name_cmp V vcmp fparse a b = natural_cmp a b).
Proof. exact argcmp_numeric. Qed.
Print Assumptions C16_argcmp_numeric.

(** The sort of the arguments never takes the panic branch; any algorithm that
    returns a sorted permutation returns the same list (the stable insertion
    sort's), so the result does not depend on the sorting algorithm. *)
Theorem C16_sort_perm_unique : forall V vcmp fparse names attr rev,
  oracle_ok_on V vcmp fparse (in_names names) ->
  let c := revc rev (arg_cmp V vcmp fparse attr) in
  sort_args V vcmp fparse attr rev names = Ok (map fst (isort c (indexed names))) /\
  Permutation (indexed names) (isort c (indexed names)) /\
  ssorted c (isort c (indexed names)) /\
  (forall l, Permutation (indexed names) l -> ssorted c l -> l = isort c (indexed names)).
Proof. exact sort_perm_unique. Qed.
Print Assumptions C16_sort_perm_unique.

(** [--sortr] reverses the comparator (tie-breakers included), not the list;
    because the comparator is strict on the arguments this is exactly the
    reversed output. *)
Theorem C16_reverse_exact : forall V vcmp fparse names,
  oracle_ok_on V vcmp fparse (in_names names) -> forall attr,
  isort (revc true (arg_cmp V vcmp fparse attr)) (indexed names) =
  rev (isort (revc false (arg_cmp V vcmp fparse attr)) (indexed names)).
Proof. exact sort_args_reverse. Qed.
Print Assumptions C16_reverse_exact.

(** With the exact decimal oracle the extracted model never takes the panic
    branch, on any list of names whatsoever. *)
Theorem C16_sort_never_panics : forall attr rev names, exists out,
  sort_args_dec attr rev names = Ok out.
Proof. exact sort_args_dec_never_panics. Qed.
Print Assumptions C16_sort_never_panics.

(** The boolean specifications evaluated on the implementation's outputs hold
    of the model: [sort_sb] (a permutation of the positions; read in the chosen
    direction, every earlier argument is strictly before every later one in the
    specified order, ties by position), the specified answer of one
    comparison, and the key form of the natural order. *)
Theorem C16_sort_model_sb : forall attr rev names out,
  sort_args_dec attr rev names = Ok out -> sort_sb_dec attr rev names out = true.
Proof. exact sort_args_dec_sb. Qed.
Print Assumptions C16_sort_model_sb.

Theorem C16_cmp_model_sb : forall names attr x y, D names x -> D names y ->
  arg_cmp_dec attr x y = spec_arg_cmp_dec attr x y.
Proof. exact arg_cmp_dec_spec. Qed.
Print Assumptions C16_cmp_model_sb.

Theorem C16_nat_model_sb : forall a b, natural_cmp a b = natural_spec a b.
Proof. exact natural_cmp_key. Qed.
Print Assumptions C16_nat_model_sb.

(** On valid UTF-8 every token is itself valid UTF-8: the [get_unchecked]
    cuts of the tokeniser lie on character boundaries. *)
Theorem C16_tokens_on_char_boundaries : forall s,
  utf8_valid s -> Forall (fun t => utf8_valid (snd t)) (tokenize s).
Proof. exact tokens_valid_utf8. Qed.
Print Assumptions C16_tokens_on_char_boundaries.

(** Sibling nodes: under the three stated conditions on the sibling set
    (same address = same entry; siblings sharing a source location all have an
    entry address or none; constants of a generic benchmark are not mixed with
    other siblings and have one type) [cmp_by_attr] is a total preorder for
    every attribute, and the sibling sort returns a sorted permutation without
    reaching the panic branch, in both directions. *)
Theorem C16_treecmp_total : forall (S : tree -> Prop) attr,
  addr_identity S -> loc_addr_uniform S -> consts_uniform S ->
  let c := cmp_by_attr attr in
  (forall x y, S x -> S y -> c y x = CompOpp (c x y)) /\
  (forall x y z, S x -> S y -> S z -> c x y = Lt -> c y z = Lt -> c x z = Lt) /\
  (forall x y z, S x -> S y -> S z -> c x y = Eq -> c x z = c y z) /\
  (forall rev l, Forall S l ->
     sort_by (revc rev c) l = Ok (isort (revc rev c) l) /\
     Permutation l (isort (revc rev c) l) /\ ssorted (revc rev c) (isort (revc rev c) l)).
Proof. exact treecmp_total. Qed.
Print Assumptions C16_treecmp_total.

(** Two of the conditions are needed (witnesses of cycles without them): two
    groups and an address-less parent at one location; a plain benchmark named
    "-1x" beside the constants -2 and -1 of a generic benchmark. *)
Theorem C16_treecmp_location_cycle_refuted :
  cmp_by_attr SLocation w_a w_c = Lt /\ cmp_by_attr SLocation w_c w_b = Lt /\
  cmp_by_attr SLocation w_a w_b = Gt.
Proof. exact loc_addr_uniform_needed. Qed.
Print Assumptions C16_treecmp_location_cycle_refuted.

Theorem C16_treecmp_const_name_cycle_refuted :
  cmp_by_attr SName w_m2 w_m1 = Lt /\ cmp_by_attr SName w_m1 w_x = Lt /\
  cmp_by_attr SName w_x w_m2 = Lt.
Proof. exact consts_uniform_needed. Qed.
Print Assumptions C16_treecmp_const_name_cycle_refuted.

(** [--sortr] on siblings (sorted with an unstable sort): the reverse of the
    ascending order is a sorted permutation for the reversed comparator, and
    the only one when no two distinct siblings tie; tied siblings may appear
    in either order in both directions. *)
Theorem C16_reverse_siblings : forall (S : tree -> Prop) attr,
  addr_identity S -> loc_addr_uniform S -> consts_uniform S ->
  forall l, Forall S l ->
  let c := cmp_by_attr attr in
  Permutation l (rev (isort c l)) /\ ssorted (revc true c) (rev (isort c l)) /\
  ((forall x y, S x -> S y -> c x y = Eq -> x = y) ->
   forall l', Permutation l l' -> ssorted (revc true c) l' -> l' = rev (isort c l)).
Proof. exact siblings_reverse. Qed.
Print Assumptions C16_reverse_siblings.

(** Sorting only permutes: whenever the sort of a forest returns, the result
    has the same entries under the same parents and the same arguments on the
    same leaves (for every float oracle, every attribute, both directions). *)
Theorem C16_permutes_only : forall V vcmp fparse attr rev ts ts',
  sort_forest V vcmp fparse attr rev ts = Ok ts' ->
  tree_perm (Parent [] None ts) (Parent [] None ts').
Proof. exact sort_forest_perm. Qed.
Print Assumptions C16_permutes_only.

(** The executable instance of "a stable sort": among elements that compare
    [Equal] the insertion sort keeps the original order (for the arguments this
    never matters, the comparator being strict; it is why [Sb] can say "ties in
    original order" for any stable algorithm). *)
Theorem C16_sort_stable : forall {A} (P : A -> Prop) (c : A -> A -> comparison),
  tpo_on P c -> forall z l, P z -> Forall P l ->
  filter (eqv_b c z) (isort c l) = filter (eqv_b c z) l.
Proof. exact @isort_stable. Qed.
Print Assumptions C16_sort_stable.

(** Whole trees.  If every sibling set at every depth satisfies the three
    conditions of [C16_treecmp_total] and every argument list the oracle
    condition ([wf_tree]), then [sort_forest] returns — neither [OutOfFuel] nor
    [NotTotalOrder] — and its result has the same entries under the same
    parents ([tree_perm]), is obtained by putting every sibling set and every
    argument list into a sorted permutation ([sorted_perm]), and is sorted at
    every level for the comparator evaluated on the output's own nodes
    ([tree_sorted]; sorting the descendants of a node does not change what the
    comparator sees of it). *)
Theorem C16_sort_forest_total : forall V vcmp fparse attr rev ts,
  sib_ok ts -> Forall (wf_tree V vcmp fparse) ts ->
  exists ts', sort_forest V vcmp fparse attr rev ts = Ok ts' /\
    tree_perm (Parent [] None ts) (Parent [] None ts') /\
    sorted_perm V vcmp fparse attr rev (Parent [] None ts) (Parent [] None ts') /\
    tree_sorted attr rev (Parent [] None ts').
Proof. exact sort_forest_total_sorted. Qed.
Print Assumptions C16_sort_forest_total.

Theorem C16_sort_forest_hyps_satisfiable :
  sib_ok ex_forest /\ Forall (wf_tree fval fval_cmp dec_parse) ex_forest.
Proof. exact sort_forest_hyps_satisfiable. Qed.
Print Assumptions C16_sort_forest_hyps_satisfiable.

(** Uniqueness up to ties: two sorted permutations of one list, for any total
    preorder, agree position by position up to [Equal]; in particular for a
    sibling set, in either direction, whatever (unstable) algorithm sorts it. *)
Theorem C16_sorted_unique_upto_ties : forall {A} (P : A -> Prop) (c : A -> A -> comparison),
  tpo_on P c -> forall l1 l2, Forall P l1 -> Permutation l1 l2 -> ssorted c l1 -> ssorted c l2 ->
  Forall2 (fun x y => c x y = Eq) l1 l2.
Proof. exact @sorted_perm_unique_upto_ties. Qed.
Print Assumptions C16_sorted_unique_upto_ties.

Theorem C16_siblings_unique_upto_ties : forall (S : tree -> Prop) attr rev,
  addr_identity S -> loc_addr_uniform S -> consts_uniform S ->
  let c := revc rev (cmp_by_attr attr) in
  forall l l1 l2, Forall S l ->
  Permutation l l1 -> ssorted c l1 -> Permutation l l2 -> ssorted c l2 ->
  Forall2 (fun x y => c x y = Eq) l1 l2.
Proof. exact siblings_unique_upto_ties. Qed.
Print Assumptions C16_siblings_unique_upto_ties.

(** Completeness of the specification of the argument sort: an output accepted
    by [sort_sb] is the model's output (with [C16_sort_model_sb]: [sort_sb]
    holds of exactly one output). *)
Theorem C16_sort_sb_complete : forall V vcmp fparse names,
  oracle_ok_on V vcmp fparse (in_names names) -> forall attr rev out,
  sort_sb V vcmp fparse attr rev names out = true ->
  sort_args V vcmp fparse attr rev names = Ok out.
Proof. exact sort_sb_complete. Qed.
Print Assumptions C16_sort_sb_complete.

Theorem C16_sort_sb_dec_complete : forall attr rev names out,
  sort_sb_dec attr rev names out = true -> sort_args_dec attr rev names = Ok out.
Proof. exact sort_sb_dec_complete. Qed.
Print Assumptions C16_sort_sb_dec_complete.
