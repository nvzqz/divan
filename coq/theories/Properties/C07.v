(** C07 — The thread pool never deadlocks, loses a wake-up or leaks workers.
    Statements only; each closed by [exact] of a lemma in Proofs/Pool*.v.
    See Properties/C06.v for what [reachable code_cfg scr s] quantifies over. *)
From DivanV Require Import Base.Res Generated.Consts Model.Pool Model.PoolFail Proofs.PoolFail Proofs.Pool Proofs.PoolLive Proofs.PoolMonitor.
Import PoolM PoolF.

(** Obligation on the generated constants ([== 1], [while], [> 0]). *)
Theorem C07_cfg_good : good code_cfg.
Proof. exact (conj eq_refl (conj eq_refl eq_refl)). Qed.

(** Caller parked, counter zero, token clear: some worker of THIS broadcast is
    about to unpark (and that step is enabled). *)
Theorem C07_no_lost_wakeup : forall scr s n,
  reachable code_cfg scr s ->
  cst s = CPark n -> rc s = 0 -> token s = false ->
  exists k, getw s k = Some (WUnpark (cur s)) /\ step code_cfg s (EWUnpark k) = Some (st_wunpark s k).
Proof. exact (fun scr s n => no_lost_wakeup code_cfg scr s n C07_cfg_good). Qed.
Print Assumptions C07_no_lost_wakeup.

(** Every reachable non-final state has an enabled step that is not a spurious
    wake-up; the final state (pool dropped, all workers exited) has none. *)
Theorem C07_deadlock_free : forall scr s,
  reachable code_cfg scr s -> final s = false ->
  exists l s', l <> ESpurious /\ step code_cfg s l = Some s'.
Proof. exact (fun scr s => deadlock_free code_cfg scr s C07_cfg_good). Qed.
Print Assumptions C07_deadlock_free.

(** The same for the executable enumeration used by the explorer: the list of
    enabled non-spurious labels of a reachable non-final state is not empty. *)
Theorem C07_deadlock_free_enabled : forall scr s,
  reachable code_cfg scr s -> final s = false -> enabled_labels code_cfg s <> [].
Proof. exact (fun scr s => deadlock_free_enabled code_cfg scr s C07_cfg_good). Qed.
Print Assumptions C07_deadlock_free_enabled.

(** The lexicographic measure (broadcasts left; program counters + pending
    token) strictly decreases on every step that is not a spurious wake-up —
    also when a stale token of an earlier broadcast is pending. *)
Theorem C07_measure_decreases : forall scr s l s',
  reachable code_cfg scr s -> step code_cfg s l = Some s' -> l <> ESpurious -> lex_lt s' s.
Proof. exact (fun scr s l s' R => measure_decreases code_cfg s l s' (inv_reachable code_cfg scr s C07_cfg_good R)). Qed.
Print Assumptions C07_measure_decreases.

(** Hence: in every infinite execution spurious wake-ups occur infinitely
    often (an execution with finitely many of them is finite), ... *)
Theorem C07_terminates : forall scr (f : nat -> state) (ls : nat -> label),
  f 0 = init scr -> (forall i, step code_cfg (f i) (ls i) = Some (f (S i))) ->
  forall N, exists i, N <= i /\ ls i = ESpurious.
Proof. exact (fun scr f ls => no_infinite_run code_cfg scr f ls C07_cfg_good). Qed.
Print Assumptions C07_terminates.

(** ... and from every reachable state the final state is reached without
    relying on any spurious wake-up. *)
Theorem C07_reaches_final : forall scr s,
  reachable code_cfg scr s ->
  exists ls s', run code_cfg s ls = Some s' /\ final s' = true /\ ~ In ESpurious ls.
Proof. exact (fun scr s => reaches_final code_cfg scr s C07_cfg_good). Qed.
Print Assumptions C07_reaches_final.

(** After the pool is dropped no task is called any more, the pool stays
    dropped, and every worker reaches its exit. *)
Theorem C07_workers_exit : forall scr s,
  reachable code_cfg scr s -> cst s = CDone ->
  (forall l s', step code_cfg s l = Some s' -> cst s' = CDone /\ calls s' = calls s)
  /\ exists ls s', run code_cfg s ls = Some s' /\ cst s' = CDone /\ all_exited s' = true.
Proof. exact (fun scr s => workers_exit code_cfg scr s C07_cfg_good). Qed.
Print Assumptions C07_workers_exit.

(** The monitor evaluated on implementation traces reports a model execution
    that ends in the final state as complete and clean: every broadcast
    returned, the pool was dropped, every worker exited, no clause violated
    (deadlock / incomplete / worker-not-exited included). *)
Theorem C07_monitor_model : forall scr ls s',
  run code_cfg (init scr) ls = Some s' -> final s' = true ->
  PoolMon.check scr (panics s') (PoolMon.trace code_cfg (init scr) ls) = [].
Proof. exact (fun scr ls s' => monitor_complete code_cfg scr ls s' C07_cfg_good). Qed.
Print Assumptions C07_monitor_model.

(** * Failed thread creation (Model/PoolFail.v; see Properties/C06.v)

    Along every execution of the extended relation (aborted broadcasts anywhere
    in the script): no lost wake-up, every non-final state has an enabled step
    that is not a spurious wake-up, and the lexicographic measure decreases on
    every step that is not a spurious wake-up (the aborted broadcast included). *)
Theorem C07_later_broadcasts_live : forall scr x,
  xreachable code_cfg code_fcfg scr x ->
  (forall n, cst (base x) = CPark n -> rc (base x) = 0 -> token (base x) = false ->
     exists k x', getw (base x) k = Some (WUnpark (cur (base x)))
                  /\ xstep code_cfg code_fcfg x (XStep (EWUnpark k)) = Some x')
  /\ (xfinal x = false -> exists l x', l <> ESpurious /\ xstep code_cfg code_fcfg x (XStep l) = Some x')
  /\ (forall xl x', xstep code_cfg code_fcfg x xl = Some x' -> xl <> XStep ESpurious -> xlex_lt x' x).
Proof. exact (fun scr x => x_c07 code_cfg scr x C07_cfg_good). Qed.
Print Assumptions C07_later_broadcasts_live.

(** Hence no infinite extended execution has finitely many spurious wake-ups, ... *)
Theorem C07_fail_terminates : forall scr (f : nat -> xstate) (ls : nat -> xlabel),
  f 0 = xinit scr -> (forall i, xstep code_cfg code_fcfg (f i) (ls i) = Some (f (S i))) ->
  forall N, exists i, N <= i /\ ls i = XStep ESpurious.
Proof. exact (fun scr f ls => x_no_infinite_run code_cfg scr f ls C07_cfg_good). Qed.
Print Assumptions C07_fail_terminates.

(** ... and from every state of an extended execution the final state (pool
    dropped, every worker — also those created by an aborted broadcast —
    exited) is reached without relying on a spurious wake-up. *)
Theorem C07_fail_reaches_final : forall scr x,
  xreachable code_cfg code_fcfg scr x ->
  exists ls x', xrun code_cfg code_fcfg x ls = Some x' /\ xfinal x' = true /\ ~ In (XStep ESpurious) ls.
Proof. exact (fun scr x => x_reaches_final code_cfg scr x C07_cfg_good). Qed.
Print Assumptions C07_fail_reaches_final.
