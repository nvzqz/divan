(** C03 — sample_count, sample_size and threads fix the number of calls exactly.
    Statements only; each closed by [exact] of a lemma in Proofs/Loop.v / Proofs/LoopProps.v.
    Model: Model/Loop.v ([bench_loop c init hist]: the sampling loop run on a
    history [hist] = the raw samples each round brought back, one per thread). *)
From DivanV Require Import Base.Res Generated.Consts Model.Timestamp Model.Loop Proofs.Loop Proofs.LoopProps Proofs.LoopSb Proofs.LoopExamples Proofs.LoopMeaning.
Local Open Scope N_scope.

(** Obligations on the generated constants: the default sample count and the
    comparisons of the loop condition are the documented ones. *)
Theorem C03_default_count_const : default_sample_count = 100.
Proof. reflexivity. Qed.

Theorem C03_loop_consts :
  default_sample_count = 100 /\ tune_threshold = 100 /\ min_progress_picos = 1000 /\
  tune_factor = 2 /\ max_time_cmp_is_ge = true /\ min_time_cmp_is_lt = true.
Proof. exact consts_loop. Qed.

(** Bench mode, explicit size [s], count [n] (default 100), [t >= 1] threads
    in every round, any history of at least R = ceil(n/t) rounds in which no
    time limit binds (the ceiling is not reached before any of the first R
    rounds, the floor is reached after them): the loop returns after exactly R
    rounds, has recorded t*R samples, every round had size s, and each thread
    (index 0 = the caller) made s*R calls. *)
Theorem C03_exact_counts : forall c init hist out s t,
  c_test c = false -> zero_case c = false -> c_size c = Some s ->
  (0 < t)%nat -> uniform_p t hist ->
  let n := sample_count_of c in
  let r := N.to_nat (ceil_div n (N.of_nat t)) in
  (r <= length hist)%nat ->
  (forall j, (j < r)%nat -> elapsed_after c init hist j < c_max c) ->
  c_min c <= elapsed_after c init hist r ->
  bench_loop c init hist = Ok out ->
  out_done out = true /\
  rounds_of (out_state out) = r /\
  length (st_samples (s_store (out_state out))) = (t * r)%nat /\
  s_sizes (out_state out) = repeat s r /\
  calls_per_thread (out_state out) = s * N.of_nat r /\
  s_size (out_state out) = (if (r =? 0)%nat then 0 else s).
Proof. exact exact_counts. Qed.
Print Assumptions C03_exact_counts.

(** The hypotheses are satisfiable (2 threads, n = 5, s = 3: three rounds, six samples, nine calls per thread). *)
Theorem C03_exact_counts_example :
  exists out, bench_loop ex_cfg 0 ex_hist = Ok out /\ out_done out = true /\
    rounds_of (out_state out) = 3%nat /\ length (st_samples (s_store (out_state out))) = 6%nat /\
    calls_per_thread (out_state out) = 9.
Proof. exact exact_counts_example. Qed.
Print Assumptions C03_exact_counts_example.

(** Test mode (whatever n, s, min, max, skip, as long as none of n, s, max is 0):
    exactly one round of size 1, one call per thread, nothing stored. *)
Theorem C03_test_mode_once : forall c init obs rest,
  c_test c = true -> zero_case c = false -> obs <> [] ->
  exists st, bench_loop c init (obs :: rest) = Ok (Done st) /\
    s_sizes st = [1] /\ calls_per_thread st = 1 /\ s_size st = 1 /\
    s_store st = store_empty /\ stat_sample_count st = 0 /\ stat_iter_count st = Ok 0.
Proof. exact test_mode_once. Qed.
Print Assumptions C03_test_mode_once.

(** n = 0, s = 0 or max_time = 0: no round at all, in bench and in test mode. *)
Theorem C03_zero_runs_nothing : forall c init hist,
  c_count c = Some 0 \/ c_size c = Some 0 \/ c_max c = 0 ->
  bench_loop c init hist = Ok (Done (init_state c)) /\
  rounds_of (init_state c) = 0%nat /\ calls_per_thread (init_state c) = 0 /\
  s_store (init_state c) = store_empty /\
  stat_sample_count (init_state c) = 0 /\ stat_iter_count (init_state c) = Ok 0.
Proof. exact zero_runs_nothing. Qed.
Print Assumptions C03_zero_runs_nothing.

(** Stats.sample_count is the number of recorded samples, Stats.iter_count that
    number times the sample size (guards: the u32 / u64 casts do not truncate). *)
Theorem C03_reported_figures : forall c init hist out,
  c_test c = false -> zero_case c = false ->
  bench_loop c init hist = Ok out ->
  let st := out_state out in
  let m := N.of_nat (length (st_samples (s_store st))) in
  m < 2 ^ 32 -> s_size st * m < 2 ^ 64 ->
  stat_sample_count st = m /\ stat_iter_count st = Ok (s_size st * m) /\
  (forall s, c_size c = Some s -> (0 < rounds_of st)%nat -> s_size st = s).
Proof. exact reported_figures. Qed.
Print Assumptions C03_reported_figures.

(** The boolean specification used by the violation search ([c03_sb]) holds of
    the model's own output whenever the loop returned, for every history with
    [t >= 1] raw samples per round, in both modes, zero cases included (guard:
    fewer than 2^32 recorded samples, so that the u32 cast of the count is exact). *)
Theorem C03_model_sb : forall c init hist out t s,
  bench_loop c init hist = Ok out -> out_done out = true ->
  seen_of_outcome t out = Ok s ->
  let pre := firstn (rounds_of (out_state out)) hist in
  uniform_p t pre -> (0 < t)%nat ->
  N.of_nat (length (st_samples (s_store (out_state out)))) < 2 ^ 32 ->
  c03_sb c t init pre s = true.
Proof. exact c03_model_sb. Qed.
Print Assumptions C03_model_sb.

(** Non-vacuity of [C03_test_mode_once] and [C03_zero_runs_nothing]. *)
Theorem C03_test_mode_example :
  c_test ex_test_cfg = true /\ zero_case ex_test_cfg = false /\
  exists st, bench_loop ex_test_cfg 0 [[ex_raw 1 2; ex_raw 1 3; ex_raw 0 9]; [ex_raw 5 6]] = Ok (Done st) /\
             s_sizes st = [1] /\ s_store st = store_empty.
Proof. exact test_mode_example. Qed.

(** End to end ([c03_e2e_sb]: what one row of the runner's table and the
    per-thread call counters must show for count n, explicit size s on t
    threads): it holds of the figures the model reports whenever no time limit
    binds. *)
Theorem C03_e2e_model : forall c init hist out s t sn,
  c_test c = false -> zero_case c = false -> c_size c = Some s ->
  (0 < t)%nat -> uniform_p t hist ->
  let n := sample_count_of c in
  let r := N.to_nat (ceil_div n (N.of_nat t)) in
  (r <= length hist)%nat ->
  (forall j, (j < r)%nat -> elapsed_after c init hist j < c_max c) ->
  c_min c <= elapsed_after c init hist r ->
  bench_loop c init hist = Ok out -> seen_of_outcome t out = Ok sn ->
  N.of_nat (t * r) < 2 ^ 32 ->
  c03_e2e_sb (c_count c) s (N.of_nat t) false (o_stat_samples sn) (o_stat_iters sn) (o_calls sn) = true.
Proof. exact c03_e2e_model. Qed.
Print Assumptions C03_e2e_model.

(** What the boolean specification [c03_sb] (evaluated on the implementation's
    output by the violation search; [hist] = the rounds that were run, [t] =
    threads, [o] = what was seen) means, in arithmetic. *)
Theorem C03_sb_meaning : forall c t init hist o,
  c03_sb c t init hist o = true <->
  (let k := length hist in
  length (o_calls o) = t /\ length (o_sizes o) = k /\ uniform_p t hist /\
  if zero_case c then
    (* nothing runs *)
    k = 0%nat /\ (forall x, In x (o_calls o) -> x = 0) /\ length (o_samples o) = 0%nat /\
    o_stat_samples o = 0 /\ o_stat_iters o = 0
  else if c_test c then
    (* test mode: one round, one call per thread, nothing stored *)
    k = 1%nat /\ (forall x, In x (o_calls o) -> x = 1) /\ length (o_samples o) = 0%nat /\
    o_stat_samples o = 0 /\ o_stat_iters o = 0
  else
    let recorded := N.of_nat (length (o_samples o)) in
    let last_sz := last (o_sizes o) 0 in
    (* reported figures: samples = recorded, iters = recorded x size, the size
       being the number of calls each recorded sample took (the last round's) *)
    o_stat_samples o = recorded /\ o_stat_iters o = recorded * o_final_size o /\
    o_final_size o = last_sz /\ o_stat_iters o = recorded * last_sz /\
    match c_size c with
    | None => True
    | Some s =>
        let n := sample_count_of c in
        let r := ceil_div n (N.of_nat t) in
        (forall x, In x (o_sizes o) -> x = s) /\
        (forall x, In x (o_calls o) -> x = s * N.of_nat k) /\
        recorded = N.of_nat t * N.of_nat k /\
        o_final_size o = (if (k =? 0)%nat then 0 else s) /\
        (* no time limit reached before the first min(R, k) rounds => k = R = ceil(n/t)
           rounds, unless the ceiling stopped the run earlier or the floor prolonged it *)
        ((forall j, (j < N.to_nat (N.min r (N.of_nat k)))%nat -> elapsed_after c init hist j < c_max c) ->
         (N.of_nat k < r -> c_max c <= elapsed_after c init hist k) /\
         (r <= N.of_nat k ->
          c_min c <= elapsed_after c init hist (N.to_nat r) \/ c_max c <= elapsed_after c init hist (N.to_nat r) ->
          N.of_nat k = r))
    end).
Proof. exact c03_sb_meaning. Qed.
Print Assumptions C03_sb_meaning.

(** Tuned sample size ([c03_tuned_sb], evaluated with [c03_sb] by the violation
    search): with [j0] the first round passing the tuning threshold and
    R = ceil(n/t), when no time limit is reached in the first j0 + R rounds and
    the floor is reached by then, exactly j0 + R rounds are run and t*R samples
    recorded; fewer rounds only if the ceiling was reached.  It holds of the
    model's output for every history ([C19_threshold_round_counts] is the
    same count as a proposition). *)
Theorem C03_tuned_sample_count : forall c init hist out t s,
  c_test c = false ->
  bench_loop c init hist = Ok out -> out_done out = true ->
  seen_of_outcome t out = Ok s -> (0 < t)%nat ->
  c03_tuned_sb c t init (firstn (rounds_of (out_state out)) hist) s = true.
Proof. exact c03_tuned_model_sb. Qed.
Print Assumptions C03_tuned_sample_count.
