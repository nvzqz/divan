(** C12 — every #[divan::bench] / #[divan::bench_group] item is registered exactly once.
    Statements only.  PARTIAL at proof level: the linker / .init_array constructor
    mechanism and [syn] parsing are exercised end to end by generated crates
    (tools/props/c12.py), not modelled; the theorems start from the two global
    entry lists (tree level) and from abstract programs (macro level). *)
From Coq Require Import Permutation.
From DivanV Require Import Base.Res Model.Registry Model.Tree Model.Driver
  Proofs.TreeBase Proofs.DriverExec Proofs.DriverC14 Proofs.TreeLeaves Proofs.Flat Proofs.FlatBridge Proofs.Expand
  Proofs.TreeEquiv Proofs.ListView Model.ListPush Proofs.ListPush Proofs.RawAttach Proofs.LookupsAgree.
Local Open Scope N_scope.

(** The leaves of the tree are the registered entries — each exactly once, under
    the raw path its module path (plus, for generic entries, function name and
    type) spells, with all its arguments; nothing else. *)
Theorem C12_tree_complete : forall benches groups,
  Permutation (raw_leaves (build_tree benches groups)) (map rleaf_of (all_entries benches groups)).
Proof. exact tree_complete. Qed.
Print Assumptions C12_tree_complete.

(** Sibling modules are merged: at every level parent names are distinct, i.e.
    the tree is the trie of the raw paths (so it is determined, up to sibling
    order, by its leaves). *)
Theorem C12_modules_merged : forall benches groups, trie_forest (build_tree benches groups).
Proof. exact modules_merged. Qed.
Print Assumptions C12_modules_merged.

Theorem C12_order_independent_leaves : forall es es',
  Permutation es es' -> Permutation (raw_leaves (from_benches es)) (raw_leaves (from_benches es')).
Proof. exact order_independent_leaves. Qed.
Print Assumptions C12_order_independent_leaves.

(** Groups attach by key: in the built tree the chain of (raw name, group) pairs
    above every leaf is a function of the leaf's raw path alone — the slot at
    prefix P holds the last registered group whose attachment key is P
    ([keyed_chain]); group insertion changes nothing else.  The attachment key
    ([attach_key]) of a group is its module path followed by the name of the first
    sibling module equal to its raw name up to a leading "r#". *)
Theorem C12_groups_attach : forall benches groups,
  flat_map leaves_rel (build_tree benches groups)
  = map (rekey (attach_key benches groups) groups) (raw_leaves (build_tree benches groups)).
Proof. exact build_tree_leaves_rel. Qed.
Print Assumptions C12_groups_attach.

(** Hence what a run executes (any ignore flag, run-time options, filter) is,
    as a multiset, what the entries say one by one: display path and options
    of every case come from its own raw path and the groups keyed by its
    prefixes. *)
Theorem C12_registered_cases : forall c benches groups,
  Permutation (exec_forest c [] None (retain (c_filter c) (build_tree benches groups)))
              (filter (fun x => c_filter c (xpath x))
                      (flat_map (keyed_case c (attach_key benches groups) groups) (all_entries benches groups))).
Proof. exact exec_keyed_filtered. Qed.
Print Assumptions C12_registered_cases.

(** With --include-ignored and no filter every registered case runs exactly
    once: one call per plain entry, one per argument value. *)
Theorem C12_all_run_once : forall benches groups,
  Permutation (map call_of (exec_forest cfg_all [] None (retain (c_filter cfg_all) (build_tree benches groups))))
              (flat_map entry_calls (all_entries benches groups)).
Proof. exact all_run_once. Qed.
Print Assumptions C12_all_run_once.

(** Link / constructor order is irrelevant as long as no two group entries attach
    under the same key and the permuted registry attaches them under the same keys
    (it does when no two sibling modules differ only by "r#": C12_attach_order_independent). *)
Theorem C12_order_independent : forall c benches groups benches' groups',
  Permutation benches benches' -> Permutation groups groups' ->
  NoDup (map (attach_key benches groups) groups) ->
  (forall g, In g groups -> attach_key benches' groups' g = attach_key benches groups g) ->
  Permutation (exec_forest c [] None (retain (c_filter c) (build_tree benches groups)))
              (exec_forest c [] None (retain (c_filter c) (build_tree benches' groups'))).
Proof. exact order_independent. Qed.
Print Assumptions C12_order_independent.

(** The property as promised: provided no generic function shares its key with
    another group, with a module that holds benchmarks, or with a prefix of another
    group's key ([no_name_clash]), what a run executes is, as a multiset, the flat
    semantics — every entry under the display names and with the options of the
    [#[divan::bench_group]] modules above it, a generic function's own entry
    standing at its own key, nothing else. *)
Theorem C12_flat_semantics : forall c benches groups,
  no_name_clash (attach_key benches groups) benches groups -> no_raw_twins benches groups ->
  Permutation (exec_forest c [] None (retain (c_filter c) (build_tree benches groups)))
              (flat_exec c benches groups).
Proof. exact exec_flat_no_twins. Qed.
Print Assumptions C12_flat_semantics.

(** [no_raw_twins]: in the tree of the benchmarks' module paths no two sibling
    modules differ only by a leading "r#" (always true of a Rust program: [r#x] and
    [x] are the same identifier).  It gives the agreement of the two lookups the
    previous theorem goes through: *)
Theorem C12_lookups_agree_of_no_twins : forall benches groups,
  no_raw_twins benches groups -> lookups_agree benches groups.
Proof. exact lookups_agree_of_no_twins. Qed.
Print Assumptions C12_lookups_agree_of_no_twins.

Theorem C12_flat_semantics_lookups : forall c benches groups,
  no_name_clash (attach_key benches groups) benches groups -> lookups_agree benches groups ->
  Permutation (exec_forest c [] None (retain (c_filter c) (build_tree benches groups)))
              (flat_exec c benches groups).
Proof. exact exec_flat. Qed.
Print Assumptions C12_flat_semantics_lookups.

Theorem C12_no_raw_twins_registry :
  no_raw_twins [w_bench_a; x_bench] [w_mod_group] /\
  no_name_clash (attach_key [w_bench_a; x_bench] [w_mod_group]) [w_bench_a; x_bench] [w_mod_group].
Proof. exact no_raw_twins_registry. Qed.
Print Assumptions C12_no_raw_twins_registry.

Theorem C12_guard_satisfiable :
  no_name_clash (attach_key [w_bench_a] [w_mod_group]) [w_bench_a] [w_mod_group] /\
  lookups_agree [w_bench_a] [w_mod_group] /\
  ~ no_name_clash (attach_key [w_bench_a] [w_mod_group; w_fn_group]) [w_bench_a] [w_mod_group; w_fn_group].
Proof. exact no_name_clash_example. Qed.
Print Assumptions C12_guard_satisfiable.

(** Registration order changes the built tree itself only by the order of
    siblings: permuting the benchmark entries and the group entries (distinct
    group keys) gives [forest_equiv] trees — equal up to sibling order at every
    level, group slots and argument lists included. *)
Theorem C12_order_independent_tree : forall benches groups benches' groups',
  Permutation benches benches' -> Permutation groups groups' ->
  NoDup (map (attach_key benches groups) groups) ->
  (forall g, In g groups -> attach_key benches' groups' g = attach_key benches groups g) ->
  forest_equiv (build_tree benches groups) (build_tree benches' groups').
Proof. exact tree_order_independent. Qed.
Print Assumptions C12_order_independent_tree.

(** A trie without empty parents is determined, up to sibling order, by the
    chains of its leaves (what the previous theorem rests on). *)
Theorem C12_trie_determined : forall T T',
  trie_forest T -> forallb inhab T = true -> trie_forest T' -> forallb inhab T' = true ->
  Permutation (LR T) (LR T') -> forest_equiv T T'.
Proof. exact forest_determined. Qed.
Print Assumptions C12_trie_determined.

Theorem C12_built_tree_inhabited : forall benches groups, forallb inhab (build_tree benches groups) = true.
Proof. exact inhab_build_tree. Qed.
Print Assumptions C12_built_tree_inhabited.

(** The [--list] view: for any sort, under the no-name-clash guard, the leaves
    painted by the list action (marked ignored or not; parents left out) are, as a
    multiset, the flat semantics' listing — every registered entry the filter
    keeps (an argument entry if at least one of its arguments passes), under its
    display path — and the walk does not panic. *)
Theorem C12_list_view : forall srt, (forall t, forest_perm t (srt t)) ->
  forall c benches groups,
  no_name_clash (attach_key benches groups) benches groups -> no_raw_twins benches groups ->
  snd (run_action c srt List benches groups) = None /\
  Permutation (painted_leaves (fst (run_action c srt List benches groups))) (flat_list c benches groups).
Proof. exact list_view_no_twins. Qed.
Print Assumptions C12_list_view.

(** Without that guard the property FAILS in divan (finding F8): a module and a
    generic function of the same name share one node; the bench_group's
    [ignore] is lost or not depending on registration order.
    Full statement that cannot hold: [forall groups', Permutation groups groups' -> ...]
    without [NoDup (map group_key groups)]. *)
Theorem C12_name_clash_refuted :
  runs_a (flat_exec cfg_plain [w_bench_a] [w_mod_group; w_fn_group]) = false /\
  runs_a (exec_forest cfg_plain [] None (build_tree [w_bench_a] [w_mod_group; w_fn_group])) = true /\
  runs_a (exec_forest cfg_plain [] None (build_tree [w_bench_a] [w_fn_group; w_mod_group])) = false.
Proof. exact name_clash_refuted. Qed.
Print Assumptions C12_name_clash_refuted.

(** Second member of the F8 class: two generic functions of the same name under
    one module path (nested in different function bodies) share one node and one
    group slot; a function that leaves [ignore] unset is ignored or not depending
    on which of the two was registered last.  [no_name_clash] excludes it
    ([NoDup] of the group keys).  When both functions set the field, each keeps
    its own setting in both orders. *)
Theorem C12_same_name_generic_refuted :
  runs_id 2 (flat_exec cfg_plain [] [s_first; s_second_unset]) = true /\
  runs_id 2 (exec_forest cfg_plain [] None (build_tree [] [s_first; s_second_unset])) = true /\
  runs_id 2 (exec_forest cfg_plain [] None (build_tree [] [s_second_unset; s_first])) = false.
Proof. exact same_name_generic_refuted. Qed.
Print Assumptions C12_same_name_generic_refuted.

Theorem C12_same_name_generic_both_set :
  runs_id 2 (exec_forest cfg_plain [] None (build_tree [] [s_first; s_second_set])) = true /\
  runs_id 2 (exec_forest cfg_plain [] None (build_tree [] [s_second_set; s_first])) = true /\
  runs_id 1 (exec_forest cfg_plain [] None (build_tree [] [s_first; s_second_set])) = false /\
  runs_id 1 (exec_forest cfg_plain [] None (build_tree [] [s_second_set; s_first])) = false.
Proof. exact same_name_generic_both_set. Qed.
Print Assumptions C12_same_name_generic_both_set.

(** The registration lists themselves ([EntryList::push], a lock-free push with the
    store into the new node's [next] field inside the CAS retry loop): for any number
    of overlapping pushes of distinct fresh nodes, every interleaving of their memory
    accesses and any spurious CAS failures, once all pushes have returned the list
    read from the head is the pushed nodes — each exactly once — followed by the
    initial list. *)
Theorem C12_push_linearizable : forall ops L0,
  (forall i, In i ops -> ~ In i L0) ->
  forall h next sched,
  NoDup ops -> spells next h L0 -> NoDup L0 ->
  Forall (fun x => In (fst x) ops) sched ->
  let s := push_run (push_init h next) sched in
  (forall i, In i ops -> l_pc s i = PDone) ->
  exists D, Permutation D ops /\ NoDup (D ++ L0) /\
            forall fuel, (length (D ++ L0) <= fuel)%nat -> walk fuel (l_next s) (l_head s) = D ++ L0.
Proof. exact push_linearizable. Qed.
Print Assumptions C12_push_linearizable.

(** ... and at every moment in between it spells exactly the finished pushes and the initial list. *)
Theorem C12_push_always_consistent : forall ops L0,
  (forall i, In i ops -> ~ In i L0) ->
  forall h next sched,
  spells next h L0 -> NoDup L0 -> Forall (fun x => In (fst x) ops) sched ->
  let s := push_run (push_init h next) sched in
  exists D, (forall i, In i D <-> In i ops /\ l_pc s i = PDone) /\ NoDup (D ++ L0) /\ spells (l_next s) (l_head s) (D ++ L0).
Proof. exact push_always_consistent. Qed.
Print Assumptions C12_push_always_consistent.

(** With the store hoisted out of the retry loop two overlapping pushes lose a node. *)
Theorem C12_push_hoisted_store_refuted :
  let s := fold_left bad_step [1; 2; 2; 1; 1] (push_init None (fun _ => None)) in
  l_pc s 1 = PDone /\ l_pc s 2 = PDone /\ walk 5 (l_next s) (l_head s) = [1].
Proof. exact hoisted_store_loses_a_node. Qed.
Print Assumptions C12_push_hoisted_store_refuted.

Theorem C12_push_hypotheses_satisfiable :
  let s := push_run (push_init (Some 7) (fun _ => None)) [(1, false); (2, false); (2, false); (2, false); (1, false); (1, false); (1, false); (1, false)] in
  l_pc s 1 = PDone /\ l_pc s 2 = PDone /\ walk 5 (l_next s) (l_head s) = [1; 2; 7].
Proof. exact push_example. Qed.
Print Assumptions C12_push_hypotheses_satisfiable.

(** F12 (raw-identifier modules).  The group attaches to the sibling module whose
    name equals its raw name up to a leading "r#": adding or removing the prefix on
    the name looked for changes nothing (edition 2015 spells [mod r#try] as "try" in
    [module_path!()], the group's raw name stays "r#try"). *)
Theorem C12_groups_attach_raw : forall comps raw raw' stored l,
  strip_raw raw = strip_raw raw' -> attach comps raw stored l = attach comps raw' stored l.
Proof. exact groups_attach_raw. Qed.
Print Assumptions C12_groups_attach_raw.

Theorem C12_insert_group_is_attach : forall l g,
  insert_group l g = attach (module_components (g_meta g)) (m_raw (g_meta g)) g l.
Proof. exact insert_group_attach. Qed.
Print Assumptions C12_insert_group_is_attach.

(** ... and it is the insertion at the attachment key, exact from there on. *)
Theorem C12_insert_group_by_key : forall l g, insert_group l g = ig (raw_key l g) g l.
Proof. exact insert_group_ig. Qed.
Print Assumptions C12_insert_group_by_key.

(** Provided no two sibling modules differ only by "r#" ([no_raw_twins_level]), the
    sibling a group attaches to does not depend on the order of the siblings. *)
Theorem C12_attach_order_independent : forall raw l l',
  Permutation l l' -> no_raw_twins_level l -> attach_name raw l = attach_name raw l'.
Proof. exact attach_name_order_independent. Qed.
Print Assumptions C12_attach_order_independent.

Theorem C12_no_raw_twins_satisfiable :
  no_raw_twins_level (map skel_of (from_benches [ABench x_bench; ABench w_bench_a])) /\
  ~ no_raw_twins_level [SNode x_try []; SNode x_rtry []].
Proof. exact no_raw_twins_example. Qed.
Print Assumptions C12_no_raw_twins_satisfiable.

(** The exact-match version (divan before the repair) loses the group: the
    benchmark below [#[divan::bench_group(name = "G", ignore)] mod r#try] runs. *)
Theorem C12_exact_match_refuted :
  let T0 := from_benches [ABench x_bench] in
  runs_a (flat_exec cfg_plain [x_bench] [x_group x_rtry]) = false /\
  map xpath (exec_forest cfg_plain [] None (insert_group_exact T0 (x_group x_rtry))) = [[107; 58; 58; 116; 114; 121; 58; 58; 97]] /\
  exec_forest cfg_plain [] None (insert_group T0 (x_group x_rtry)) = [] /\
  exec_forest cfg_plain [] None (insert_group T0 (x_group x_try)) = [] /\
  exec_forest cfg_plain [] None (build_tree [x_bench] [x_group x_rtry]) = [].
Proof. exact exact_match_refuted. Qed.
Print Assumptions C12_exact_match_refuted.

(** Macro level: one [#[divan::bench]] registers nothing for exclusively empty
    [types]/[consts]; one [BenchEntry] without generics; otherwise one
    [GroupEntry] whose generic entries are exactly the types x consts product
    (types outer, consts inner), all sharing the function's argument list and
    numbered consecutively. *)
Theorem C12_expand_empty : forall mp n b,
  generic_is_empty (bd_types b) (bd_consts b) = true -> expand_bench mp n b = Ok ([], [], n).
Proof. exact expand_bench_empty. Qed.
Print Assumptions C12_expand_empty.

Theorem C12_expand_plain : forall mp n b,
  bd_types b = None -> bd_consts b = None ->
  expand_bench mp n b = Ok ([{| b_id := n; b_meta := bench_meta mp b; b_runner := runner_of n (bd_args b) |}], [], n + 1).
Proof. exact expand_bench_plain. Qed.
Print Assumptions C12_expand_plain.

Theorem C12_expand_exact : forall mp n b,
  generic_is_empty (bd_types b) (bd_consts b) = false ->
  (bd_types b <> None \/ bd_consts b <> None) ->
  consts_compile (bd_consts b) ->
  exists rows,
    expand_bench mp n b
    = Ok ([], [{| g_id := n; g_meta := bench_meta mp b; g_generic := Some rows |}], n + 1 + N.of_nat (length (concat rows)))
    /\ map (map ge_kind) rows = expected_kinds (bd_types b) (consts_values (bd_consts b))
    /\ (forall e, In e (concat rows) -> ge_runner e = runner_of n (bd_args b))
    /\ map ge_id (concat rows) = map (fun i => n + 1 + N.of_nat i) (seq 0 (length (concat rows))).
Proof. exact expand_bench_generic. Qed.
Print Assumptions C12_expand_exact.

Theorem C12_expand_product_count : forall types cs,
  length (concat (expected_kinds types (Some cs))) = (length (types_iter types) * length cs)%nat.
Proof. exact expected_kinds_count. Qed.
Print Assumptions C12_expand_product_count.

(** External consts: 1..20 values are all registered, 0 or more than 20 do not compile. *)
Theorem C12_extern_consts : forall cs,
  ((0 < length cs <= max_extern_count)%nat -> extern_consts cs = Ok cs) /\
  ((max_extern_count < length cs)%nat -> extern_consts cs = Panic Other) /\
  extern_consts [] = Panic OutOfBounds.
Proof. exact (fun cs => conj (extern_consts_ok cs) (conj (extern_consts_too_many cs) extern_consts_none)). Qed.
Print Assumptions C12_extern_consts.

(** The specification evaluated on the implementation's output. *)
Theorem C12_flat_sb_meaning : forall expected got,
  c12_flat_sb expected got = true <-> Permutation expected got.
Proof. exact multiset_eqb_spec. Qed.
Print Assumptions C12_flat_sb_meaning.
