(** C08 - threads of a parallel benchmark enter and leave timed sections
    together; each sample reports only its own thread's allocations; a panic on
    any thread ends the run with a panic on the calling thread instead of a hang.
    Statements only; each closed by [exact] of a lemma in Proofs/Round*.v.
    The model (Model/Round.v) is a transition system over any number of threads
    [nthreads c], any number of rounds, any sample sizes, any interleaving
    ([reachable]: any sequence of labels) and any fault set ([fault c]).
    [fixed_code c]: the configuration is the code after commit 80a110a (the
    guard exists) and ThreadAllocInfo::current() is Some on every thread. *)
From Coq Require Import List Arith Bool NArith.
From DivanV Require Import Generated.Consts2 Model.Round Proofs.RoundBase Proofs.RoundInv Proofs.RoundTerm Proofs.RoundAlloc Proofs.RoundEx Proofs.RoundMon Proofs.RoundRec.
Import ListNotations.

(** The invariant evaluated by the exhaustive explorer ([inv_b], DESIGN.md
    Appendix A) holds in every reachable state, for every thread count. *)
Theorem C08_invariant : forall c st,
  1 <= nthreads c -> fixed_code c -> reachable c st -> inv_b c st = true.
Proof. exact invariant_reachable. Qed.
Print Assumptions C08_invariant.

(** Phase order, in every reachable state of a round with sample size n
    (positions: generator calls 0..n-1, clear n+1, start timestamp n+3, end
    timestamp 2n+4, last wait 2n+5, snapshot 2n+6, drops from 2n+7):
    if some thread - panicked or not - took its start timestamp, every thread
    has finished generating and clearing or has already panicked (and then runs
    no further user code: [tstep] only lets it wait and leave); if some thread
    is past the last wait, i.e. before its snapshot and its first drop, every
    thread has taken its end timestamp or has already panicked.  [phase_sb] is
    the boolean form evaluated on states by the explorer. *)
Theorem C08_phase_order : forall c st,
  2 <= nthreads c -> fixed_code c -> reachable c st ->
  (gp st = GRun ->
   let n := ssize c (round st) in
   forall ti tj, In ti (ths st) -> In tj (ths st) ->
     (n + 3 < pc ti -> n + 1 < pc tj \/ panicked tj = true) /\
     (2 * n + 5 < pc ti -> 2 * n + 4 < pc tj \/ panicked tj = true))
  /\ phase_sb c st = true.
Proof. exact phase_order_reachable. Qed.
Print Assumptions C08_phase_order.

(** One thread's untimed work never overlaps another's timed section: while a
    live thread is between its two timestamps, every other live thread is
    between its second and third wait (positions n+2 .. 2n+5). *)
Theorem C08_no_overlap : forall c st,
  2 <= nthreads c -> fixed_code c -> reachable c st -> gp st = GRun ->
  let n := ssize c (round st) in
  forall ti tj, In ti (ths st) -> In tj (ths st) ->
    panicked ti = false -> n + 3 < pc ti <= 2 * n + 4 ->
    panicked tj = false -> n + 2 <= pc tj <= 2 * n + 5.
Proof. exact no_overlap_reachable. Qed.
Print Assumptions C08_no_overlap.

(** Deadlock freedom: a reachable state that is not final has an enabled step. *)
Theorem C08_deadlock_free : forall c st,
  1 <= nthreads c -> fixed_code c -> reachable c st -> final st = false ->
  exists l st', step c st l = Some st'.
Proof. exact deadlock_free_reachable. Qed.
Print Assumptions C08_deadlock_free.

(** Every step strictly decreases [measure]. *)
Theorem C08_measure_decreases : forall c st l st',
  1 <= nthreads c -> fixed_code c -> reachable c st ->
  step c st l = Some st' -> measure c st' < measure c st.
Proof. exact measure_decreases_reachable. Qed.
Print Assumptions C08_measure_decreases.

(** Every execution - any interleaving, any fault set - is at most
    [measure c (init c)] steps long, and when it cannot be extended the caller's
    loop is over with the outcome [expected c]: a normal return if no fault is
    in range, "Divan benchmarking thread k panicked" for the least faulting
    thread k of the first faulty round otherwise. *)
Theorem C08_panic_terminates : forall c tr st,
  1 <= nthreads c -> fixed_code c ->
  exec_from c (init c) tr st ->
  length tr <= measure c (init c) /\
  ((forall l, step c st l = None) -> gp st = GEnd (option_map snd (expected c))).
Proof. exact panic_terminates. Qed.
Print Assumptions C08_panic_terminates.

(** ... where the outcome is a panic iff the fault set is non-empty. *)
Theorem C08_no_panic_iff_no_fault : forall c,
  expected c = None <->
  (forall r i p, r < nrounds c -> i < nthreads c ->
     p < plen (ssize c r) (shp c) -> userpos (ssize c r) (shp c) p = true -> fault c i r p = false).
Proof. exact expected_none_iff. Qed.
Print Assumptions C08_no_panic_iff_no_fault.

Theorem C08_panic_names_least_thread : forall c r k,
  expected c = Some (r, k) ->
  r < nrounds c /\ k < nthreads c /\ thread_faults c r k = true /\
  (forall j, j < k -> thread_faults c r j = false) /\
  (forall r', r' < r -> round_faulty c r' = None).
Proof. exact expected_some. Qed.
Print Assumptions C08_panic_names_least_thread.

(** The protocol without the guard (before commit 80a110a) deadlocks: T = 2,
    thread 1 panics in its call, thread 0 blocks forever in the last wait. *)
Theorem C08_old_deadlocks :
  exists tr st, exec_from (cfg2 false flt1) (init (cfg2 false flt1)) tr st /\
                final st = false /\ forall l, step (cfg2 false flt1) st l = None.
Proof. exact old_deadlocks. Qed.
Print Assumptions C08_old_deadlocks.

(** A latent hazard (not reachable on Linux, where thread-local allocation info
    always exists while a benchmark runs): if ThreadAllocInfo::current() is None
    on one thread only, that thread skips the second wait and the round
    deadlocks even with the guard.  T = 2, no panic at all. *)
Theorem C08_mixed_info_deadlocks :
  exists tr st, exec_from cfg2_noinfo1 (init cfg2_noinfo1) tr st /\
                final st = false /\ forall l, step cfg2_noinfo1 st l = None.
Proof. exact mixed_info_deadlocks. Qed.
Print Assumptions C08_mixed_info_deadlocks.

(** Own allocations: the sample a thread hands back holds exactly the
    operations of its own calls of the benchmarked function in this round. *)
Theorem C08_own_allocs : forall c st i th,
  1 <= nthreads c -> fixed_code c -> reachable c st ->
  gp st = GRun -> nth_error (ths st) i = Some th -> md th = Returned ->
  result th = Some (own_allocs c i (round st)).
Proof. exact own_allocs_reachable. Qed.
Print Assumptions C08_own_allocs.

Theorem C08_own_allocs_are_own_calls : forall c i r,
  own_allocs c i r = flat_map (allocs c i r) (seq (ssize c r + 4) (ssize c r)).
Proof. exact own_allocs_calls. Qed.
Print Assumptions C08_own_allocs_are_own_calls.

Theorem C08_own_allocs_only_own : forall c c' i r,
  ssize c r = ssize c' r -> (forall p, allocs c i r p = allocs c' i r p) ->
  own_allocs c i r = own_allocs c' i r.
Proof. exact own_allocs_only_own. Qed.
Print Assumptions C08_own_allocs_only_own.

(** The caller's bookkeeping ([records]: alloc_info_by_sample after a run in
    which nothing panics): an entry exists exactly for every (round r, thread t)
    whose own tally is not empty, under index r*T + t, and holds that tally. *)
Theorem C08_sample_index : forall c k s,
  In (k, s) (records c) <->
  exists r t, r < nrounds c /\ t < nthreads c /\ k = r * nthreads c + t /\
              s = own_allocs c t r /\ s <> [].
Proof. exact sample_index. Qed.
Print Assumptions C08_sample_index.

(** The sample stored under index r*T + t is thread t's own, never another thread's. *)
Theorem C08_sample_index_own : forall c r t s,
  t < nthreads c -> In (r * nthreads c + t, s) (records c) ->
  r < nrounds c /\ s = own_allocs c t r /\ s <> [].
Proof. exact sample_index_own. Qed.
Print Assumptions C08_sample_index_own.

(** The boolean specification evaluated on the implementation's observed global
    logs ([log_sb], a monitor independent of [step]) accepts the log of every
    execution of the model - any thread count, interleaving and fault set
    and any sample size per round ([ssize c r]: constant when sample_size is
    given, 1, 2, 4, ... while the sample size is being tuned). *)
Theorem C08_log_sb_model : forall c,
  1 <= nthreads c -> fixed_code c ->
  forall tr, log_sb (nthreads c) (ssize c) (events c (init c) tr) = true.
Proof. exact log_sb_model. Qed.
Print Assumptions C08_log_sb_model.

Theorem C08_hyps_log_sb :
  (forall r, ssize (cfg2 true flt1) r = 1) /\
  length (events (cfg2 true flt1) (init (cfg2 true flt1)) (tr_upto_panic ++ [t1; t1; t0; t0; t0; LJoin])) = 18.
Proof. exact log_sb_hyps. Qed.
Print Assumptions C08_hyps_log_sb.

(** The hypotheses are satisfiable by non-trivial executions. *)
Theorem C08_hyps_phase_order :
  exists c st, 2 <= nthreads c /\ fixed_code c /\ reachable c st /\ gp st = GRun /\
               exists ti, In ti (ths st) /\ ssize c (round st) + 3 < pc ti.
Proof. exact phase_order_hyps. Qed.
Print Assumptions C08_hyps_phase_order.

Theorem C08_hyps_panic_run :
  exists tr st, exec_from (cfg2 true flt1) (init (cfg2 true flt1)) tr st /\
                gp st = GEnd (Some 1) /\ expected (cfg2 true flt1) = Some (0, 1).
Proof. exact new_terminates. Qed.
Print Assumptions C08_hyps_panic_run.

Theorem C08_hyps_clean_run :
  exists tr st, exec_from (cfg2 true nofault) (init (cfg2 true nofault)) tr st /\
                gp st = GEnd None /\ expected (cfg2 true nofault) = None /\
                map result (ths st) = [Some [Alloc 5%N]; Some [Alloc 105%N]].
Proof. exact clean_run. Qed.
Print Assumptions C08_hyps_clean_run.

(** Obligation on the generated constant (tools/extract_consts2.py re-reads the
    source on every run): [SampleBarrier::WAIT_COUNT] is the 3 waits per sample
    of the model's per-sample program and guard. *)
Theorem C08_wait_count_const : barrier_wait_count = 3%N.
Proof. reflexivity. Qed.
Print Assumptions C08_wait_count_const.

(** The same for the full log, which since hook H5 also contains the barrier
    waits performed by the guard while a thread unwinds. *)
Theorem C08_log_sb_model_full : forall c,
  1 <= nthreads c -> fixed_code c ->
  forall tr, log_sb (nthreads c) (ssize c) (events_full c (init c) tr) = true.
Proof. exact log_sb_model_full. Qed.
Print Assumptions C08_log_sb_model_full.
