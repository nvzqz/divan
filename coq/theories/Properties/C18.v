(** C18 — Printed durations, sizes and throughputs are truthful truncations.
    Statements only; each closed by [exact] of a lemma in Proofs/Fmt*.v. *)
From DivanV Require Import Base.Res Generated.Consts Generated.Consts2 Model.FmtF64 Model.FmtDuration Model.FmtScale
  Proofs.FmtF64 Proofs.FmtDuration Proofs.FmtScale.
Local Open Scope N_scope.

(** Obligations on the generated constants: the code's tables are the ones the
    property names. *)
Theorem C18_unit_table : unit_picos_table = map fst (tl spec_units).
Proof. reflexivity. Qed.

Theorem C18_suffix_table : unit_suffix_table = map snd spec_units.
Proof. reflexivity. Qed.

Theorem C18_default_sig_figs : fmt_default_sig_figs = 4.
Proof. reflexivity. Qed.

Theorem C18_pico_as_nano : fmt_pico_as_nano_above = 3.
Proof. reflexivity. Qed.

Theorem C18_starts_decimal : scale_starts_decimal = spec_starts false.
Proof. reflexivity. Qed.

Theorem C18_starts_binary : scale_starts_binary = spec_starts true.
Proof. reflexivity. Qed.

(** * Durations *)

(** For EVERY picosecond value [p] (all of [N], in particular all of u128):
    [Display] prints the numeral of [p / u] truncated toward zero to
    [k = max 0 (4 - d)] decimal places ([render_fix t k] is the canonical
    numeral of [t / 10^k]: integer digits in full, no trailing zeros, no
    exponent — see [C18_numeral_meaning]), a space, and the suffix of [u],
    where [u] is the unit of [C18_unit_largest] and [d] the number of integer
    digits of [floor (p / u)] ([C18_digit_count]). *)
Theorem C18_duration_trunc : forall p,
  let '(u, suffix) := spec_unit 4 p in
  let d := len (digits_of (p / u)) in
  let k := 4 - d in
  fmt_duration p = FOk (render_fix (p * 10 ^ k / u) k ++ [ch_space] ++ suffix).
Proof. exact duration_trunc. Qed.
Print Assumptions C18_duration_trunc.

(** The unit: one of ps ns µs ms s m h d; the largest not exceeding [p];
    values below 1 ns are shown in ns (by default; in ps when at most 3
    significant figures are requested). *)
Theorem C18_unit_largest : forall sig p,
  In (spec_unit sig p) spec_units /\
  (1000 <= p -> fst (spec_unit sig p) <= p /\
                forall u, In u spec_units -> fst u <= p -> fst u <= fst (spec_unit sig p)) /\
  (p < 1000 -> spec_unit sig p = if 3 <? sig then spec_ns else spec_ps).
Proof. exact spec_unit_largest. Qed.
Print Assumptions C18_unit_largest.

(** [digits_of n] is the decimal numeral of [n] (so the fuel of its definition
    never runs out), and its length is the number of integer digits. *)
Theorem C18_digits_of_correct : forall n,
  canon (digits_of n) /\ val (digits_of n) = n.
Proof. exact digits_of_spec. Qed.
Print Assumptions C18_digits_of_correct.

Theorem C18_digit_count : forall n,
  n < 10 ^ len (digits_of n) /\ (0 < n -> 10 ^ (len (digits_of n) - 1) <= n).
Proof. exact digits_of_len_bounds. Qed.
Print Assumptions C18_digit_count.

(** What "the numeral of [a/b] truncated to [max 0 (sig - d)] places" means,
    stated on the parsed string over integers ([numeral_sb]): a canonical
    integer part equal to [floor (a/b)], optionally '.' and at most [sig - d]
    fraction digits not ending in '0', whose value is [floor (a 10^k / b) / 10^k]
    exactly, and nothing else.  There is exactly one such string. *)
Theorem C18_numeral_meaning : forall s a b sig, b <> 0 ->
  (numeral_sb s a b sig = true <-> s = trunc_numeral a b sig).
Proof. exact (fun s a b sig _ => numeral_sb_spec s a b sig). Qed.
Print Assumptions C18_numeral_meaning.

(** The same for the precision / width forms, for up to 7 significant figures
    (the table printer uses the default form only; for more than 7 figures the
    pre-scaled integer can exceed 2^53 and, from 11 on, overflow u128 in the
    float path: outside the model's float assumption, see FInexact). *)
Theorem C18_duration_with_trunc : forall prec width p,
  sig_of prec <= 7 ->
  let sig := sig_of prec in
  let '(u, suffix) := spec_unit sig p in
  let d := len (digits_of (p / u)) in
  let k := sig - d in
  fmt_duration_with prec width p =
  FOk (fill_to width (render_fix (p * 10 ^ k / u) k ++ [ch_space] ++ suffix)).
Proof. exact duration_with_trunc. Qed.
Print Assumptions C18_duration_with_trunc.

(** Formatting never panics for any picosecond value, and on the float path
    the 128-bit product cannot overflow and the integer converted to [f64] is
    below 10^15 < 2^53 (so the conversion is exact). *)
Theorem C18_total : forall p, exists s, fmt_duration p = FOk s.
Proof. exact fmt_duration_total. Qed.
Print Assumptions C18_total.

Theorem C18_total_with : forall prec width p, sig_of prec <= 7 ->
  exists s, fmt_duration_with prec width p = FOk s.
Proof. exact fmt_duration_with_total. Qed.
Print Assumptions C18_total_with.

Theorem C18_no_overflow : forall sig p, sig <= 7 -> p < day_v * 10 ^ sig ->
  p * pow10_sat128 sig < 2 ^ 128.
Proof. exact float_path_no_overflow. Qed.
Print Assumptions C18_no_overflow.

Theorem C18_float_operand_exact : forall p, p < day_v * 10 ^ 4 ->
  p * 10 ^ 4 / fst (spec_unit 4 p) < 10 ^ 15 /\ 10 ^ 15 < 2 ^ 53.
Proof. exact float_operand_small. Qed.
Print Assumptions C18_float_operand_exact.

(** The boolean specification evaluated on the implementation's outputs says
    exactly "the output is the specified string", and the model satisfies it. *)
Theorem C18_duration_sb_meaning : forall sig width p out,
  duration_sb sig width p out = true <-> out = FOk (spec_duration_string sig width p).
Proof. exact duration_sb_spec. Qed.
Print Assumptions C18_duration_sb_meaning.

Theorem C18_duration_model_sb : forall prec width p, sig_of prec <= 7 ->
  duration_sb (sig_of prec) width p (fmt_duration_with prec width p) = true.
Proof. exact duration_model_sb. Qed.
Print Assumptions C18_duration_model_sb.

(** * Byte sizes and throughputs (over exact non-negative rationals [a/b]) *)

(** The same rule with decimal (1000^i) or binary (1024^i) prefixes: the model
    ([scale_value]'s comparison chain over the generated tables, the division,
    [format_f64] on the decimal string) prints the numeral of
    [a / (b * st)] truncated to [max 0 (sig - d)] places and the suffix of the
    prefix [i] chosen by [C18_scale_largest].  The floating-point arithmetic
    of the code is idealised as exact here; the implementation is tied to
    this statement "up to double-precision rounding" by [scaled_sb_approx]
    ([C18_scaled_sb_approx_sound]) in the correspondence check. *)
Theorem C18_scaled_trunc : forall f sig a b, b <> 0 -> sig + 1 < 2 ^ 64 ->
  let '(i, st) := spec_scale (sfmt_binary f) a b in
  let d := len (digits_of (a / (b * st))) in
  let k := sig - d in
  fmt_scaled f sig (VQ a b) = Ok (render_fix (a * 10 ^ k / (b * st)) k ++ [ch_space] ++ spec_suffix f i).
Proof. exact scaled_trunc. Qed.
Print Assumptions C18_scaled_trunc.

Theorem C18_scale_largest : forall binary a b, b <> 0 ->
  let '(i, st) := spec_scale binary a b in
  let base := if binary then 1024 else 1000 in
  i <= 5 /\ st = base ^ i /\ (i <> 0 -> st * b <= a) /\ (i <> 5 -> a < base ^ (i + 1) * b).
Proof. exact (fun binary a b _ => spec_scale_largest binary a b). Qed.
Print Assumptions C18_scale_largest.

(** [format_f64] alone (allocation counts): the numeral rule without a unit. *)
Theorem C18_format_f64_trunc : forall sig a b, b <> 0 -> sig + 1 < 2 ^ 64 ->
  format_f64 sig (VQ a b) = Ok (trunc_numeral a b sig).
Proof. exact format_f64_spec. Qed.
Print Assumptions C18_format_f64_trunc.

(** A zero count prints 0; a zero duration with a non-zero count prints inf. *)
Theorem C18_zero_inf : forall kind binary f, thr_format kind binary = Ok f ->
  (forall picos, display_throughput kind 0 picos binary = Ok ([ch_0; ch_space] ++ spec_suffix f 0)) /\
  (forall count, count <> 0 ->
     display_throughput kind count 0 binary = Ok ([105; 110; 102; ch_space] ++ spec_suffix f 0)).
Proof.
  exact (fun kind binary f Hf =>
    conj (fun picos => throughput_zero_count kind picos binary f Hf)
         (fun count Hc => throughput_zero_duration kind count binary f Hf Hc)).
Qed.
Print Assumptions C18_zero_inf.

(** Otherwise the throughput is the scaled rule for [count * 10^12 / picos]
    with 4 significant figures. *)
Theorem C18_throughput_scaled : forall kind count picos binary f, thr_format kind binary = Ok f ->
  count <> 0 -> picos <> 0 ->
  display_throughput kind count picos binary
  = Ok (spec_scaled_string f 4 (count * 1000000000000) picos).
Proof. exact throughput_scaled. Qed.
Print Assumptions C18_throughput_scaled.

(** No panic for any count, any duration, any of the four counter kinds. *)
Theorem C18_throughput_total : forall kind count picos binary, kind <= 3 ->
  exists s, display_throughput kind count picos binary = Ok s.
Proof. exact throughput_total. Qed.
Print Assumptions C18_throughput_total.

(** Boolean specifications: meaning, the model satisfies them, and the
    tolerant variant only accepts strings that are the exact rule's string
    for a rational within relative 2^-50 of the exact value. *)
Theorem C18_scaled_sb_meaning : forall f sig a b out, b <> 0 ->
  (scaled_sb f sig a b out = true <-> out = spec_scaled_string f sig a b).
Proof. exact (fun f sig a b out _ => scaled_sb_spec f sig a b out). Qed.
Print Assumptions C18_scaled_sb_meaning.

Theorem C18_scaled_model_sb : forall f sig a b, b <> 0 -> sig + 1 < 2 ^ 64 ->
  match fmt_scaled f sig (VQ a b) with
  | Ok s => scaled_sb f sig a b s = true /\ scaled_sb_approx f sig a b s = true
  | Panic _ => False
  end.
Proof. exact scaled_model_sb. Qed.
Print Assumptions C18_scaled_model_sb.

Theorem C18_throughput_model_sb : forall kind count picos binary, kind <= 3 ->
  throughput_sb kind count picos binary (display_throughput kind count picos binary) = true.
Proof. exact throughput_model_sb. Qed.
Print Assumptions C18_throughput_model_sb.

Theorem C18_scaled_sb_approx_sound : forall f sig a b out, b <> 0 ->
  scaled_sb_approx f sig a b out = true ->
  exists x y, y <> 0 /\
    a * (tol - 1) * y <= x * (b * tol) <= a * (tol + 1) * y /\
    out = spec_scaled_string f sig x y.
Proof. exact scaled_sb_approx_sound. Qed.
Print Assumptions C18_scaled_sb_approx_sound.

(** Obligations on the generated suffix tables of util/fmt.rs
    (tools/extract_consts2.py): the unit suffixes typed into [spec_suffix] are
    the code's, for every scale One..Peta. *)
Theorem C18_suffix_tables :
  suffix_bytes_decimal = map (spec_suffix (SBytes false)) [0; 1; 2; 3; 4; 5] /\
  suffix_bytes_binary = map (spec_suffix (SBytes true)) [0; 1; 2; 3; 4; 5] /\
  suffix_chars = map (spec_suffix SChars) [0; 1; 2; 3; 4; 5] /\
  suffix_cycles = map (spec_suffix SCycles) [0; 1; 2; 3; 4; 5] /\
  suffix_items = map (spec_suffix SItems) [0; 1; 2; 3; 4; 5].
Proof. repeat split; reflexivity. Qed.
Print Assumptions C18_suffix_tables.

(** * Glue for C05's printing clause *)

(** Finite non-negative values never print "NaN" or "inf": for every finite
    value [a/b] (b <> 0), every [sig], every suffix family and both byte
    formats, [format_f64] prints a numeral and [fmt_scaled] (so [format_bytes]
    and the finite throughputs) prints [numeral ++ " " ++ suffix] where the
    numeral consists of digits and at most one '.' ([numeral_chars]) and the
    whole string contains neither "NaN" nor "inf"; likewise [fmt_duration p]
    for every [p]. *)
Theorem C18_finite_prints_no_nan :
  (forall sig a b, b <> 0 -> sig + 1 < 2 ^ 64 ->
     exists num, format_f64 sig (VQ a b) = Ok num /\ numeral_chars num /\
       ~ contains nan_str num /\ ~ contains inf_str num) /\
  (forall f sig a b, b <> 0 -> sig + 1 < 2 ^ 64 ->
     exists num i, i <= 5 /\
       fmt_scaled f sig (VQ a b) = Ok (num ++ [ch_space] ++ spec_suffix f i) /\
       numeral_chars num /\
       ~ contains nan_str (num ++ [ch_space] ++ spec_suffix f i) /\
       ~ contains inf_str (num ++ [ch_space] ++ spec_suffix f i)) /\
  (forall p,
     exists num suffix,
       fmt_duration p = FOk (num ++ [ch_space] ++ suffix) /\
       numeral_chars num /\ In suffix (map snd spec_units) /\
       ~ contains nan_str (num ++ [ch_space] ++ suffix) /\
       ~ contains inf_str (num ++ [ch_space] ++ suffix)).
Proof. exact (conj format_f64_prints_no_nan (conj fmt_scaled_prints_no_nan duration_prints_no_nan)). Qed.
Print Assumptions C18_finite_prints_no_nan.

(** The throughput starts with "inf" iff the count is non-zero and the
    duration zero, and never contains "NaN", for the four counter kinds. *)
Theorem C18_inf_iff_zero_duration : forall kind count picos binary, kind <= 3 ->
  exists s, display_throughput kind count picos binary = Ok s /\
    (starts_with inf_str s <-> count <> 0 /\ picos = 0) /\
    ~ contains nan_str s.
Proof. exact throughput_inf_iff. Qed.
Print Assumptions C18_inf_iff_zero_duration.

(** * Explicit precision / width of a throughput
    ([format!("{t:<w$.p$}")] of a [DisplayThroughput]) *)

(** The precision has ONE reader — the number of significant figures — and the
    width only pads (on the right, by byte length): for every precision and
    every width the output is the rule's string for [thr_sig prec] figures
    followed by spaces; it is never cut. *)
Theorem C18_throughput_with_trunc : forall kind count picos binary prec width f,
  thr_format kind binary = Ok f -> thr_sig prec + 1 < 2 ^ 64 -> count <> 0 -> picos <> 0 ->
  display_throughput_with kind count picos binary prec width
  = Ok (fill_to width (spec_scaled_string f (thr_sig prec) (count * 1000000000000) picos)).
Proof. exact throughput_with_spec. Qed.
Print Assumptions C18_throughput_with_trunc.

Theorem C18_throughput_with_default : forall kind count picos binary,
  display_throughput_with kind count picos binary None None = display_throughput kind count picos binary.
Proof. exact throughput_with_default. Qed.
Print Assumptions C18_throughput_with_default.

Theorem C18_throughput_with_model_sb : forall kind count picos binary prec width,
  kind <= 3 -> thr_sig prec + 1 < 2 ^ 64 ->
  throughput_with_sb kind count picos binary prec width
    (display_throughput_with kind count picos binary prec width) = true.
Proof. exact throughput_with_model_sb. Qed.
Print Assumptions C18_throughput_with_model_sb.
