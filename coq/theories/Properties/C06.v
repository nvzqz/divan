(** C06 — Pool broadcast runs the task once per index and publishes its effects.
    Statements only; each closed by [exact] of a lemma in Proofs/Pool*.v.

    [reachable code_cfg scr s]: [s] is reachable in the transition system of
    Model/Pool.v from [init scr] — for EVERY script [scr] (any number of
    broadcasts, any thread counts), every interleaving of caller and workers,
    any subset of panicking calls, spurious wake-ups included.  [code_cfg] is
    the configuration read from pool.rs by tools/extract_consts.py. *)
From DivanV Require Import Base.Res Generated.Consts Generated.Consts2 Model.Pool Model.PoolFail Proofs.PoolFail Proofs.Pool Proofs.PoolLive Proofs.PoolCalls
  Proofs.PoolViews Proofs.PoolSlots Proofs.PoolExamples Proofs.PoolBool Proofs.PoolMonitor Proofs.PoolVec.
Import PoolM PoolF.

(** Obligations on the generated constants: the worker unparks iff [fetch_sub]
    returned 1, the caller waits in a [while] loop whose condition is "counter
    non-zero", the decrement releases and the load acquires. *)
Theorem C06_cfg_good : good code_cfg.
Proof. exact (conj eq_refl (conj eq_refl eq_refl)). Qed.

Theorem C06_dec_is_release : is_release (c_dec code_cfg) = true.
Proof. reflexivity. Qed.

Theorem C06_load_is_acquire : is_acquire (c_load code_cfg) = true.
Proof. reflexivity. Qed.

(** Every broadcast that has returned (record [r]: number [r_b], [r_n] auxiliary
    threads) had each index [0..=r_n] called exactly once and no other index,
    and that stays so for the rest of the execution. *)
Theorem C06_once_per_index : forall scr s r,
  reachable code_cfg scr s -> In r (returned s) ->
  once_per_index s (r_b r) (r_n r) = true
  /\ NoDup (calls s) /\ (forall i, In (r_b r, i) (calls s) <-> i <= r_n r).
Proof. exact (fun scr s r => once_per_index_returned code_cfg scr s r C06_cfg_good). Qed.
Print Assumptions C06_once_per_index.

(** Index 0 is called on the caller, index [k >= 1] on worker [k] (which was
    handed the task): these are the only transitions that call the task. *)
Theorem C06_call_sites : forall s l s',
  step code_cfg s l = Some s' ->
  calls s' = calls s
  \/ (exists p, l = ERun0 p /\ calls s' = calls s ++ [(cur s, 0)])
  \/ (exists k p b, l = EWRun k p /\ getw s k = Some (WRun b) /\ 1 <= k /\ calls s' = calls s ++ [(b, k)]).
Proof. exact (call_sites code_cfg). Qed.
Print Assumptions C06_call_sites.

(** When the whole script has run, the return records are exactly the
    broadcasts of the script, in order (so the two theorems above are not
    vacuous; the final state is reachable by C07). *)
Theorem C06_all_returned : forall scr s,
  reachable code_cfg scr s -> final s = true ->
  map r_n (returned s) = scr /\ map r_b (returned s) = seq 1 (length scr).
Proof. exact (fun scr s => returned_is_script code_cfg scr s C06_cfg_good). Qed.
Print Assumptions C06_all_returned.

(** The caller leaves [broadcast] only when the counter is zero, no worker is
    still before its decrement (all [n] worker calls have returned or
    panicked), and all [n + 1] indices have been called. *)
Theorem C06_returns_after_all : forall scr s l s',
  reachable code_cfg scr s -> step code_cfg s l = Some s' ->
  in_broadcast (cst s) = true -> in_broadcast (cst s') = false ->
  rc s = 0 /\ Forall (fun w => any_pre w = false) (ws s)
  /\ (forall i, In (cur s, i) (calls s) <-> i <= bcast_n (cst s))
  /\ exists r, returned s' = returned s ++ [r] /\ r_b r = cur s /\ r_n r = bcast_n (cst s).
Proof. exact (fun scr s l s' => returns_after_all code_cfg scr s l s' C06_cfg_good). Qed.
Print Assumptions C06_returns_after_all.

(** Whenever the caller is outside [broadcast] — in particular where pool.rs
    drops its caught panic payload, after the wait loop, and hence also when a
    panicking payload destructor makes that drop escape from [broadcast] — the
    task block is dead and no worker is still before its decrement. *)
Theorem C06_caller_past_loop : forall scr s,
  reachable code_cfg scr s -> in_broadcast (cst s) = false ->
  alive s = false /\ Forall (fun w => any_pre w = false) (ws s).
Proof. exact (fun scr s => caller_past_loop code_cfg scr s C06_cfg_good). Qed.
Print Assumptions C06_caller_past_loop.

(** No worker ever touches the task block when it is not alive or not the
    current one ([bad] is raised by such a touch and by a counter underflow);
    every worker before its decrement belongs to the current broadcast, whose
    block is alive. *)
Theorem C06_no_access_after_return : forall scr s,
  reachable code_cfg scr s ->
  bad s = false
  /\ Forall (fun w => any_pre w = true -> pre_dec (cur s) w = true /\ alive s = true) (ws s).
Proof. exact (fun scr s => no_access_after_return code_cfg scr s C06_cfg_good). Qed.
Print Assumptions C06_no_access_after_return.

(** Publication.  For ANY configuration with the code's control shape whose
    decrement is at least a release and whose load is at least an acquire, the
    caller's view at the return of a broadcast contains every call of that
    broadcast (the return happens-after all [n + 1] calls). *)
Theorem C06_publication_generic : forall c scr s r,
  good c -> is_release (c_dec c) = true -> is_acquire (c_load c) = true ->
  reachable c scr s -> In r (returned s) ->
  view_has_all (r_b r) (r_n r) (r_view r) = true
  /\ forall i, i <= r_n r -> In (r_b r, i) (r_view r).
Proof. exact publication. Qed.
Print Assumptions C06_publication_generic.

(** ... and the code's orderings (the generated constants) satisfy the two
    obligations. *)
Theorem C06_publication : forall scr s r,
  reachable code_cfg scr s -> In r (returned s) ->
  view_has_all (r_b r) (r_n r) (r_view r) = true
  /\ forall i, i <= r_n r -> In (r_b r, i) (r_view r).
Proof. exact (fun scr s r => publication code_cfg scr s r C06_cfg_good C06_dec_is_release C06_load_is_acquire). Qed.
Print Assumptions C06_publication.

(** [par_extend]: the slots handed back by a returned broadcast are in index
    order, slot [i] = [Some i] (the result of call [i]) unless call [i]
    panicked, in which case it is [None]; later broadcasts do not disturb them. *)
Theorem C06_results_indexed : forall scr s r,
  reachable code_cfg scr s -> In r (returned s) ->
  r_slots r = expected_slots s (r_b r) (r_n r)
  /\ length (r_slots r) = S (r_n r)
  /\ forall i, i <= r_n r ->
       nth_error (r_slots r) i = Some (if vmem (r_b r, i) (panics s) then None else Some i).
Proof. exact (fun scr s r => results_indexed_returned code_cfg scr s r C06_cfg_good). Qed.
Print Assumptions C06_results_indexed.

(** ... and they land in the caller's vector as a suffix: for a vector with
    [length v_elems <= v_cap] (any contents: reused after [clear()], appended to,
    little spare room), [par_extend] (reserve_exact(n+1), pre-clear of the spare
    slots, set_len, slot [old_len + i] written by call [i]) never violates
    [set_len]'s precondition, leaves the old elements in place, appends exactly
    the [n + 1] result slots [sl] of the broadcast and never shrinks the capacity. *)
Theorem C06_par_extend_vector : forall v n sl,
  length (v_elems v) <= v_cap v -> length sl = S n ->
  exists v', par_extend_vec v n sl = Ok v'
             /\ v_elems v' = v_elems v ++ sl
             /\ length (v_elems v') <= v_cap v'
             /\ v_cap v <= v_cap v'.
Proof. exact (fun v n sl _ => par_extend_vector v n sl). Qed.
Print Assumptions C06_par_extend_vector.

(** Worker threads are created only when a broadcast needs more than exist
    (exactly the missing ones, appended, idle) and no step ever removes one. *)
Theorem C06_spawn_reuse : forall s l s',
  step code_cfg s l = Some s' ->
  match l with
  | EBegin n => length (ws s') = Nat.max (length (ws s)) n /\ firstn (length (ws s)) (ws s') = ws s
                /\ skipn (length (ws s)) (ws s') = repeat WIdle (n - length (ws s))
  | _ => length (ws s') = length (ws s)
  end.
Proof. exact (spawn_reuse code_cfg). Qed.
Print Assumptions C06_spawn_reuse.

(** The executable invariants that the explorer (driver mode pool-bfs) checks
    by brute force on small scripts, and the trace replay checks at the end of
    every implementation trace, hold in every reachable state of every script. *)
Theorem C06_boolean_invariants : forall scr s,
  reachable code_cfg scr s -> inv_all code_cfg s = true.
Proof. exact (fun scr s => inv_all_reachable code_cfg scr s C06_cfg_good). Qed.
Print Assumptions C06_boolean_invariants.

(** The boolean specification that is evaluated on IMPLEMENTATION traces
    (PoolMon, driver modes c06.sb / c07.sb) holds of the model: for every
    script and every execution [ls] of the model from [init scr] (any
    interleaving, any panicking subset, spurious wake-ups), the monitor run on
    the event trace that the execution induces ([PoolMon.trace], the same
    label/event correspondence that ocaml/pool.ml applies to implementation
    tokens) reports no violated clause — at any point of the execution, since
    every prefix of an execution is an execution.  [panics s'] is the panicking
    subset the execution chose. *)
Theorem C06_monitor_model : forall scr ls s',
  run code_cfg (init scr) ls = Some s' ->
  PoolMon.violations (panics s') (PoolMon.trace code_cfg (init scr) ls) = [].
Proof. exact (fun scr ls s' => monitor_safe code_cfg scr ls s' C06_cfg_good). Qed.
Print Assumptions C06_monitor_model.

(** The hypotheses above are satisfiable together by a non-trivial execution:
    script [2; 1] (worker reuse), call (1,1) panics, one wake-up by token, one
    spurious wake-up, pool drop; the first record has an empty slot exactly at
    the panicked index. *)
Theorem C06_nonvacuous :
  exists s r, reachable code_cfg [2; 1] s /\ final s = true /\ In r (returned s)
              /\ r_b r = 1 /\ r_n r = 2 /\ r_slots r = [Some 0; None; Some 2].
Proof. exact nonvacuous. Qed.
Print Assumptions C06_nonvacuous.

(** Obligation on the source text (tools/extract_consts2.py): in
    [broadcast_task] the caught panic payload of call 0 is dropped textually
    after the wait loop, i.e. at the model's return step ([C06_caller_past_loop]
    then makes an escaping drop-panic harmless). *)
Theorem C06_payload_dropped_after_wait : pool_payload_drop_after_wait = true.
Proof. reflexivity. Qed.
Print Assumptions C06_payload_dropped_after_wait.

(** * Failed thread creation (Model/PoolFail.v)

    The extended relation [xstep] adds to the steps of Model/Pool.v the aborted
    broadcast [XAbort n j]: under the [threads] lock, [j] missing threads were
    created, the next creation was refused, the [expect] panicked (mutex
    poisoned, recovered by the next [lock()]), and the caller left [broadcast]
    before any send and before index 0.  [code_fcfg] is the shape of the code
    (sender pushed after the successful spawn, poisoned lock recovered).

    (a) From any state satisfying the pool invariants at a broadcast boundary an
    aborted broadcast leaves a state satisfying the same invariants, whose
    workers are the old ones plus the [j] created idle ones; nothing was handed
    out, nothing was called, counter, token, numbering and records untouched. *)
Theorem C06_fail_preserves_inv : forall scr s j n rest,
  Inv s -> Inv2 scr s -> InvV code_cfg s -> InvS s ->
  cst s = CIdle -> script s = n :: rest ->
  let s' := st_abort s j rest in
  Inv s' /\ (exists scr', Inv2 scr' s') /\ InvV code_cfg s' /\ InvS s'
  /\ ws s' = ws s ++ repeat WIdle j /\ script s' = rest /\ cst s' = CIdle
  /\ calls s' = calls s /\ panics s' = panics s /\ rc s' = rc s /\ token s' = token s
  /\ cur s' = cur s /\ returned s' = returned s /\ bad s' = bad s.
Proof. exact (fail_preserves_inv code_cfg). Qed.
Print Assumptions C06_fail_preserves_inv.

(** (b) Hence along EVERY execution of the extended relation (aborted
    broadcasts anywhere in the script, any number of them) the C06 statements
    hold: no worker touches a dead task block; every returned broadcast — in
    particular every broadcast after an aborted one — had each index called
    exactly once, its slots are indexed, its return happens-after all its calls
    (given the two ordering obligations); outside a broadcast no worker is
    before its decrement. *)
Theorem C06_later_broadcasts_correct : forall scr x,
  xreachable code_cfg code_fcfg scr x ->
  bad (base x) = false
  /\ (forall r, In r (returned (base x)) ->
        once_per_index (base x) (r_b r) (r_n r) = true
        /\ (forall i, In (r_b r, i) (calls (base x)) <-> i <= r_n r)
        /\ r_slots r = expected_slots (base x) (r_b r) (r_n r)
        /\ (is_release (c_dec code_cfg) = true -> is_acquire (c_load code_cfg) = true ->
            view_has_all (r_b r) (r_n r) (r_view r) = true))
  /\ NoDup (calls (base x))
  /\ (in_broadcast (cst (base x)) = false -> Forall (fun w => any_pre w = false) (ws (base x))).
Proof. exact (fun scr x => x_c06 code_cfg scr x C06_cfg_good). Qed.
Print Assumptions C06_later_broadcasts_correct.

(** The hypotheses are satisfiable: script [2; 2], first broadcast aborted after
    thread 1 was created, the second creates thread 2, reuses thread 1, call 2
    panics; one record. *)
Theorem C06_fail_nonvacuous :
  exists x, xreachable code_cfg code_fcfg [2; 2] x /\ xfinal x = true
            /\ map r_n (returned (base x)) = [2] /\ length (ws (base x)) = 2
            /\ map r_slots (returned (base x)) = [[Some 0; Some 1; None]].
Proof. exact x_example. Qed.
Print Assumptions C06_fail_nonvacuous.

(** (c) The two seeded shapes are refuted by witnesses: with [lock().unwrap()]
    a non-final state without any enabled step is reachable (the next broadcast
    cannot take the poisoned lock); with the sender pushed before the spawn a
    state is reachable in which [threads] holds a dead channel, counts a thread
    that does not exist, and the next broadcast is not a step. *)
Theorem C06_lock_not_recovered_refuted :
  exists x, xreachable code_cfg fcfg_no_recover [1; 1] x /\ xfinal x = false
            /\ script (base x) = [1] /\ forall xl, xstep code_cfg fcfg_no_recover x xl = None.
Proof. exact lock_not_recovered_refuted. Qed.
Print Assumptions C06_lock_not_recovered_refuted.

Theorem C06_push_before_spawn_refuted :
  exists x, xreachable code_cfg fcfg_push_first [2; 2] x
            /\ In false (chans x) /\ length (chans x) <> length (ws (base x))
            /\ script (base x) = [2] /\ xstep code_cfg fcfg_push_first x (XStep (EBegin 2)) = None.
Proof. exact push_before_spawn_refuted. Qed.
Print Assumptions C06_push_before_spawn_refuted.
