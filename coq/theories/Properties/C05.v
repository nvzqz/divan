(** C05 — Reported statistics are the exact order statistics of the samples.
    Statements only; each closed by [exact] of a lemma in Proofs/Stats.v.

    [compute_stats fixed dbg sv inp] is the model of [BenchContext::compute_stats]
    ([fixed = true]: the current code; [dbg]: overflow checks on/off); [sv] is
    the sorted view of the samples the sort produced.  All theorems hold for
    *every* admissible view, i.e. every permutation of the indexed samples that
    is sorted by duration ([C05_admissible_meaning]). *)
From Coq Require Import Permutation Sorted.
From DivanV Require Import Base.Res Model.Stats Proofs.Stats Proofs.StatsProv Proofs.StatsSb Proofs.StatsStore Proofs.StatsAlloc Proofs.StatsBlocks.
Local Open Scope N_scope.

Theorem C05_admissible_meaning : forall durs sv,
  admissibleb durs sv = true <->
  Permutation sv (indexed durs) /\ StronglySorted (fun a b => snd a <= snd b) sv.
Proof. exact StatsLists.admissibleb_iff. Qed.
Print Assumptions C05_admissible_meaning.

(** The specification functions: least and greatest element, the sorted
    permutation of the durations, and the four figures in terms of them. *)
Theorem C05_spec_meaning : forall durs,
  (durs <> [] -> In (list_min durs) durs /\ Forall (fun y => list_min durs <= y) durs) /\
  (durs <> [] -> In (list_max durs) durs /\ Forall (fun y => y <= list_max durs) durs) /\
  Permutation (sort_vals durs) durs /\ StronglySorted N.le (sort_vals durs) /\
  (forall s, spec_fastest durs s = list_min durs / s) /\
  (forall s, spec_slowest durs s = list_max durs / s) /\
  (forall s, durs <> [] -> spec_median durs s =
     if Nat.even (length durs)
     then ((nth (length durs / 2 - 1) (sort_vals durs) 0 + nth (length durs / 2) (sort_vals durs) 0) / 2) / s
     else nth (length durs / 2) (sort_vals durs) 0 / s) /\
  (forall s, s * N.of_nat (length durs) <> 0 ->
     spec_mean durs s = sum_list durs / (s * N.of_nat (length durs))) /\
  (forall s, spec_median [] s = 0 /\ spec_mean [] s = 0 /\ spec_fastest [] s = 0 /\ spec_slowest [] s = 0).
Proof. exact spec_meaning. Qed.
Print Assumptions C05_spec_meaning.

(** fastest / slowest = least / greatest duration / sample size; median = the
    middle sample (floor of the mean of the two middle ones for an even count)
    / sample size; mean = total duration / total iteration count; all in floor
    division on integer picoseconds.  Guard: the u128 total and the u64
    iteration count do not overflow ([no_overflow]). *)
Theorem C05_order_stats : forall dbg sv inp st,
  admissibleb (in_durs inp) sv = true -> no_overflow inp ->
  compute_stats true dbg sv inp = Ok st ->
  fastest (st_time st) = spec_fastest (in_durs inp) (in_size inp) /\
  slowest (st_time st) = spec_slowest (in_durs inp) (in_size inp) /\
  median (st_time st) = spec_median (in_durs inp) (in_size inp) /\
  mean (st_time st) = spec_mean (in_durs inp) (in_size inp) /\
  st_iter_count st = in_size inp * N.of_nat (length (in_durs inp)) /\
  st_sample_count st = N.of_nat (length (in_durs inp)) mod 2 ^ 32.
Proof. exact order_stats. Qed.
Print Assumptions C05_order_stats.

(** The inequalities hold with the floor divisions (mean divides the total by
    the total count, the others one sample by the size). *)
Theorem C05_bounds : forall dbg sv inp st,
  admissibleb (in_durs inp) sv = true -> size_ok inp -> no_overflow inp ->
  compute_stats true dbg sv inp = Ok st ->
  fastest (st_time st) <= median (st_time st) <= slowest (st_time st) /\
  fastest (st_time st) <= mean (st_time st) <= slowest (st_time st).
Proof. exact bounds. Qed.
Print Assumptions C05_bounds.

(** No panic and every f64 field finite (neither NaN nor infinite), for all
    inputs in which a sample size of 0 comes with no samples ([size_ok]); a
    build without overflow checks needs no further guard.  Includes the empty
    sample list, sample size 0, no counters. *)
Theorem C05_total_no_nan : forall dbg sv inp,
  admissibleb (in_durs inp) sv = true -> size_ok inp -> (dbg = true -> no_overflow inp) ->
  exists st, compute_stats true dbg sv inp = Ok st /\
             forallb xq_is_fin (all_xq st) = true /\ existsb xq_is_nan (all_xq st) = false.
Proof. exact total_no_nan. Qed.
Print Assumptions C05_total_no_nan.

(** Without [size_ok] the clause is false: samples with sample size 0 make the
    current code divide by zero (not reachable from the sampling loop, which
    returns early for a sample size of 0). *)
Theorem C05_total_refuted_zero_sample_size :
  forall dbg, compute_stats true dbg [(0, 1)]
    {| in_size := 0; in_durs := [1]; in_allocs := []; in_counters := [] |} = Panic DivByZero.
Proof. exact zero_sample_size_panics. Qed.
Print Assumptions C05_total_refuted_zero_sample_size.

(** Same-sample clause.  [column_of_sample inp st selq seln smp]: column
    [selq]/[seln] of [st] shows, for the one sample [smp] = (index, duration) of
    the recorded samples, its duration / sample size, the ten allocation figures
    recorded for *its index* / sample size (0 when none were recorded) and its
    counter values.  [median_of_two]: two different samples, durations, allocation
    figures and counter values averaged.  Guards: a non-zero sample size, at
    least one sample, no overflow of the totals, counter values are u64. *)
Theorem C05_provenance : forall dbg sv inp st,
  admissibleb (in_durs inp) sv = true -> in_size inp <> 0 -> in_durs inp <> [] ->
  no_overflow inp -> counts_u64 inp ->
  compute_stats true dbg sv inp = Ok st ->
  (exists f, snd f = list_min (in_durs inp) /\ column_of_sample inp st fastest fastest f) /\
  (exists l, snd l = list_max (in_durs inp) /\ column_of_sample inp st slowest slowest l) /\
  (if Nat.even (length (in_durs inp))
   then exists m0 m1, snd m0 = mid_lo (in_durs inp) /\ snd m1 = mid_hi (in_durs inp) /\
                      median_of_two inp st m0 m1
   else exists m, snd m = mid_hi (in_durs inp) /\ column_of_sample inp st median median m).
Proof. exact provenance. Qed.
Print Assumptions C05_provenance.

(** Means: every allocation mean is the total over all recorded allocation
    infos / total iteration count (at least 1); a counter's mean is the sum of
    its recorded values / their number. *)
Theorem C05_means : forall dbg sv inp st,
  no_overflow inp -> counts_u64 inp -> compute_stats true dbg sv inp = Ok st ->
  Forall2 (fun x t => xq_eqb x (Fin t (N.max (in_size inp * N.of_nat (length (in_durs inp))) 1)) = true)
          (column_of mean st) (totals_of inp) /\
  Forall2 (fun ci o => forall set, o = Some set ->
             ci_counts ci <> [] /\
             mean set = sum_list (ci_counts ci) / N.of_nat (length (ci_counts ci)))
          (in_counters inp) (st_counts st).
Proof. exact means. Qed.
Print Assumptions C05_means.

(** A counter kind is reported iff samples exist and a value was recorded (for
    every sample, when the counter is per input). *)
Theorem C05_counter_presence : forall dbg sv inp st,
  admissibleb (in_durs inp) sv = true -> compute_stats true dbg sv inp = Ok st ->
  Forall2 (fun ci o => forall b, expect_counter (length (in_durs inp)) ci = Some b -> b = is_some o)
          (in_counters inp) (st_counts st).
Proof. exact presence. Qed.
Print Assumptions C05_counter_presence.

(** The value stored for a per-input counter with a sample: the sum over the
    sample's inputs / sample size; with one u64 count per iteration the cast to
    u64 loses nothing. *)
Theorem C05_counter_per_iter : forall input_counts ssize,
  ssize <> 0 -> sum_list input_counts < 2 ^ 128 ->
  per_iter_count input_counts ssize = Ok ((sum_list input_counts / ssize) mod 2 ^ 64) /\
  (N.of_nat (length input_counts) = ssize -> Forall (fun c => c < 2 ^ 64) input_counts ->
   per_iter_count input_counts ssize = Ok (sum_list input_counts / ssize)).
Proof. exact counter_per_iter. Qed.
Print Assumptions C05_counter_per_iter.

(** The boolean specification evaluated by the violation search on the
    implementation's outputs holds of the model, for every admissible view and
    every input of the property's domain ([C05_in_domain_meaning]). *)
Theorem C05_in_domain_meaning : forall inp,
  in_domain inp = true -> size_ok inp /\ no_overflow inp /\ counts_u64 inp.
Proof. exact in_domain_props. Qed.
Print Assumptions C05_in_domain_meaning.

Theorem C05_model_sb : forall dbg sv inp,
  admissibleb (in_durs inp) sv = true -> in_domain inp = true ->
  stats_sb inp (compute_stats true dbg sv inp) = true.
Proof. exact model_sb. Qed.
Print Assumptions C05_model_sb.

Theorem C05_per_iter_model_sb : forall input_counts ssize,
  per_iter_sb input_counts ssize (per_iter_count input_counts ssize) = true.
Proof. exact per_iter_model_sb. Qed.
Print Assumptions C05_per_iter_model_sb.

(** What the boolean specification says (it is evaluated on the
    implementation's outputs; these lemmas keep it readable). *)
Theorem C05_sb_meaning : forall inp out,
  stats_sb inp out = true <->
  (in_domain inp = true ->
   exists st, out = Ok st /\ time_ok inp st = true /\ forallb xq_is_fin (all_xq st) = true /\
              presence_ok inp st = true /\ means_ok inp st = true /\ provenance_ok inp st = true).
Proof. exact stats_sb_spec. Qed.
Print Assumptions C05_sb_meaning.

Theorem C05_sb_time_meaning : forall inp st,
  time_ok inp st = true <->
  st_sample_count st = N.of_nat (length (in_durs inp)) mod 2 ^ 32 /\
  st_iter_count st = in_size inp * N.of_nat (length (in_durs inp)) /\
  fastest (st_time st) = spec_fastest (in_durs inp) (in_size inp) /\
  slowest (st_time st) = spec_slowest (in_durs inp) (in_size inp) /\
  median (st_time st) = spec_median (in_durs inp) (in_size inp) /\
  mean (st_time st) = spec_mean (in_durs inp) (in_size inp) /\
  fastest (st_time st) <= median (st_time st) <= slowest (st_time st) /\
  fastest (st_time st) <= mean (st_time st) <= slowest (st_time st).
Proof. exact time_ok_spec. Qed.
Print Assumptions C05_sb_time_meaning.

Theorem C05_sb_provenance_meaning : forall inp st,
  provenance_ok inp st = true <->
  match in_durs inp with
  | [] => Forall (fun x => xq_eqb x (Fin 0 1) = true)
                 (column_of fastest st ++ column_of slowest st ++ column_of median st)
  | _ => column_from_one fastest fastest inp st (list_min (in_durs inp)) = true /\
         column_from_one slowest slowest inp st (list_max (in_durs inp)) = true /\
         (if Nat.even (length (in_durs inp)) then median_from_two inp st = true
          else column_from_one median median inp st (mid_hi (in_durs inp)) = true)
  end.
Proof. exact provenance_ok_spec. Qed.
Print Assumptions C05_sb_provenance_meaning.

Theorem C05_sb_column_meaning : forall selq seln inp st d,
  column_from_one selq seln inp st d = true <->
  exists smp, In smp (indexed (in_durs inp)) /\ snd smp = d /\
    Forall2 (fun x v => xq_close x (Fin v (in_size inp)) = true)
            (column_of selq st) (figures_of_index inp (fst smp)) /\
    Forall2 (fun ci o => forall set, o = Some set -> exists c, count_for ci smp = Some c /\ seln set = c)
            (in_counters inp) (st_counts st).
Proof. exact column_from_one_spec. Qed.
Print Assumptions C05_sb_column_meaning.

Theorem C05_sb_median_two_meaning : forall inp st,
  median_from_two inp st = true <->
  exists s1 s2, In s1 (indexed (in_durs inp)) /\ In s2 (indexed (in_durs inp)) /\ fst s1 <> fst s2 /\
    snd s1 = mid_lo (in_durs inp) /\ snd s2 = mid_hi (in_durs inp) /\
    Forall2 (fun x v => xq_close x (Fin v (2 * in_size inp)) = true)
            (column_of median st)
            (map (fun p => fst p + snd p)
                 (combine (figures_of_index inp (fst s1)) (figures_of_index inp (fst s2)))) /\
    Forall2 (fun ci o => forall set, o = Some set ->
               exists c1 c2, count_for ci s1 = Some c1 /\ count_for ci s2 = Some c2 /\
                             median set = (c1 + c2) / 2)
            (in_counters inp) (st_counts st).
Proof. exact median_from_two_spec. Qed.
Print Assumptions C05_sb_median_two_meaning.

(** [xq_close x y]: within relative 1e-12 of the exact value, denominators non-zero. *)
Theorem C05_sb_close_meaning : forall a b c d,
  xq_close (Fin a b) (Fin c d) = true <->
  b <> 0 /\ d <> 0 /\
  (a * d <= c * b -> (c * b - a * d) * 10 ^ 12 <= c * b) /\
  (c * b <= a * d -> (a * d - c * b) * 10 ^ 12 <= c * b).
Proof. exact xq_close_spec. Qed.
Print Assumptions C05_sb_close_meaning.

(** The counts stored for a per-input counter kind ([record_rounds]: model of
    the recording loop as far as one kind is concerned; a round = (tuning?,
    sample size, the input counts of each raw sample)).  Whatever was stored for
    the kind before [input_counter] was called (a constant from the options or
    from [Bencher::counter]), and however the rounds are split between tuning
    and collecting: never a panic, the kind stays per-input, the number of
    stored counts is the number of stored samples, and each is its own sample's
    sum over the inputs / sample size. *)
Theorem C05_counts_length : forall ci0 rounds,
  Forall round_wf rounds ->
  exists n ci, record_rounds (0%nat, set_input_counter ci0) rounds = Ok (n, ci) /\
    ci_input ci = true /\
    length (ci_counts ci) = n /\ n = length (kept_samples [] rounds) /\
    ci_counts ci = map stored_value (kept_samples [] rounds).
Proof. exact counts_length. Qed.
Print Assumptions C05_counts_length.

Theorem C05_stored_model_sb : forall ci0 rounds ssize n ci,
  Forall round_wf rounds ->
  Forall (fun p => fst p = ssize) (kept_samples [] rounds) ->
  record_rounds (0%nat, set_input_counter ci0) rounds = Ok (n, ci) ->
  stored_counts_sb ssize (map (fun p => sum_list (snd p)) (kept_samples [] rounds)) ci = true.
Proof. exact stored_model_sb. Qed.
Print Assumptions C05_stored_model_sb.

(** [Bencher::counter] of kind K called after [input_counter] of kind K
    (current code, after the fix 5377f60): the constant replaces the per-input
    counter.  For any rounds: no panic, one stored count, the kind is not
    per-input, every sample reports the constant. *)
Theorem C05_counter_overrides_input_counter : forall ci0 c rounds,
  let ci := {| ci_counts := [c]; ci_input := false |} in
  set_counter c (set_input_counter ci0) = ci /\
  record_rounds (0%nat, set_counter c (set_input_counter ci0)) rounds
    = Ok (length (kept_samples [] rounds), ci) /\
  constant_counter_sb c ci = true /\
  forall s, count_for ci s = Some c.
Proof. exact counter_overrides_input_counter. Qed.
Print Assumptions C05_counter_overrides_input_counter.

(** The behaviour before that fix, kept as a witness: the constant stayed as a
    stale first entry of a per-input kind (4 counts for 3 samples). *)
Theorem C05_old_counter_after_input_counter_stale :
  record_rounds (0%nat, set_counter_old 3023 (set_input_counter {| ci_counts := []; ci_input := false |}))
                [(false, 2, [[252; 726]; [432; 141]; [615; 321]])]
  = Ok (3%nat, {| ci_counts := [3023; 489; 286; 468]; ci_input := true |}).
Proof. exact old_counter_after_input_counter_is_stale. Qed.
Print Assumptions C05_old_counter_after_input_counter_stale.

(** The allocation records of a run ([record_alloc_infos]: the gate
    [if !tallies.is_empty() { alloc_info_by_sample.insert(index, ..) }] of the
    recording loop).  [is_empty] means that all eight tally figures are 0; sample
    [j] has a record iff one of its figures is not 0 (a timed section that only
    frees or shrinks memory included), and the record is its own info. *)
Theorem C05_alloc_is_empty_meaning : forall i,
  tallies_is_empty i = true <->
  forall op, t_count (ai_tally op i) = 0 /\ t_size (ai_tally op i) = 0.
Proof. exact tallies_is_empty_spec. Qed.
Print Assumptions C05_alloc_is_empty_meaning.

Theorem C05_alloc_gate : forall infos j,
  alist_find j (record_alloc_infos 0 infos []) =
  match nth_error infos (N.to_nat j) with
  | Some i => if tallies_is_empty i then None else Some i
  | None => None
  end.
Proof. exact alloc_gate. Qed.
Print Assumptions C05_alloc_gate.

Theorem C05_alloc_records_model_sb : forall infos,
  alloc_records_sb (map tallies_of_info infos) (record_alloc_infos 0 infos []) = true.
Proof. exact alloc_records_model_sb. Qed.
Print Assumptions C05_alloc_records_model_sb.

(** The same over whole runs ([record_alloc_rounds]: a tuning round discards
    the samples recorded so far *and* their allocation records,
    [SampleCollection::clear]): the number of stored samples is that of the kept
    ones, and stored sample [j] has a record iff its own tally is not empty —
    never the record of a discarded tuning sample that had the same index. *)
Theorem C05_alloc_gate_rounds : forall rounds,
  fst (record_alloc_rounds rounds) = length (kept_infos rounds) /\
  forall j, alist_find j (snd (record_alloc_rounds rounds)) =
            match nth_error (kept_infos rounds) (N.to_nat j) with
            | Some i => if tallies_is_empty i then None else Some i
            | None => None
            end.
Proof. exact alloc_gate_rounds. Qed.
Print Assumptions C05_alloc_gate_rounds.

(** Which allocation blocks the table shows.  [set_is_zero] models
    [StatsSet<f64>::is_zero]: all four columns are 0 ([C05_is_zero_meaning]);
    `max alloc:` is shown iff its size set is not zero, the block of an operation
    iff its count set or its size set is not zero ([printed_blocks]).  For the
    statistics [compute_stats] returns this is exactly: some recorded allocation
    info has a non-zero figure of that kind ([blocks_spec]) — whichever samples
    are fastest and slowest, so an allocation in an interior sample is shown. *)
Theorem C05_is_zero_meaning : forall s,
  set_is_zero s = true <->
  xq_is_zero (fastest s) = true /\ xq_is_zero (slowest s) = true /\
  xq_is_zero (median s) = true /\ xq_is_zero (mean s) = true.
Proof. exact set_is_zero_spec. Qed.
Print Assumptions C05_is_zero_meaning.

Theorem C05_printed_blocks : forall dbg sv inp st,
  compute_stats true dbg sv inp = Ok st -> printed_blocks st = blocks_spec inp.
Proof. exact printed_blocks_spec. Qed.
Print Assumptions C05_printed_blocks.
